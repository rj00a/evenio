(* Order.v : the order of every listener list (C07).
     OInv: every per-archetype listener list and every global listener list satisfies the
           HandlerList invariant HlInv (three segments High / Medium / Low delimited by the
           before / after cursors, each sorted by the order in which the handlers were added),
           with priority and order read from the handler registry; by_insert_order is sorted.
   It is an invariant of every call, so the handlers a delivery runs are always sorted by
   priority, then by insertion order. *)
From Coq Require Import List NArith Bool Sorted.
Import ListNotations.
Require Import EV.Base EV.ListN EV.Access EV.Query EV.QueryInd EV.SlotMap EV.Reserve EV.HList EV.Loop EV.World EV.SlotMapGet
  EV.ArchProofs EV.WorldFrame EV.Layer EV.Store EV.Register EV.Graph EV.Effects EV.Reach EV.Steps EV.RemoveComp EV.Member EV.Listen.
Require EV.HListProofs.
Open Scope N_scope.

Definition kpr (w : world) (hk : key) : prio := match sm_get hk (w_hs w) with Some h => h_prio h | None => Low end.
Definition kord (w : world) (hk : key) : N := match sm_get hk (w_hs w) with Some h => h_order h | None => 0 end.
Definition HlW (w : world) (l : hlist key) : Prop := HListProofs.HlInv (kpr w) (kord w) l.

Definition OInv (w : world) : Prop :=
  (forall ai a idx l, arch_at w ai = Some a -> alookup idx (a_listeners a) = Some l -> HlW w l) /\
  (forall idx l, nget (w_glists w) idx = Some l -> HlW w l) /\
  StronglySorted (fun a b : N * key => fst a < fst b) (w_horder w).

Lemma HlInv_ext (pr pr' : key -> prio) (ord ord' : key -> N) l :
  (forall x, In x (hl_entries l) -> pr' x = pr x /\ ord' x = ord x) -> HListProofs.HlInv pr ord l -> HListProofs.HlInv pr' ord' l.
Proof.
  intros Hx (Hs & Ms & Ls & He & Hb & Ha & SH & SM & SL). exists Hs, Ms, Ls. split; [exact He|]. split; [exact Hb|]. split; [exact Ha|].
  assert (Hseg : forall p X, (forall x, In x X -> In x (hl_entries l)) -> HListProofs.seg pr ord p X -> HListProofs.seg pr' ord' p X).
  { intros p X Hsub [F S]. split.
    - rewrite Forall_forall in *. intros x Hin. rewrite (proj1 (Hx x (Hsub x Hin))). now apply F.
    - clear F. induction S as [|x X S IH Hall]; [constructor|]. constructor; [apply IH; intros; apply Hsub; now right|].
      rewrite Forall_forall in *. intros y Hy. rewrite (proj2 (Hx x (Hsub x (or_introl eq_refl)))), (proj2 (Hx y (Hsub y (or_intror Hy)))). now apply Hall. }
  rewrite He in Hseg. split; [|split].
  - apply Hseg; [|exact SH]. intros x Hin. apply in_or_app. now left.
  - apply Hseg; [|exact SM]. intros x Hin. apply in_or_app. right. apply in_or_app. now left.
  - apply Hseg; [|exact SL]. intros x Hin. apply in_or_app. right. apply in_or_app. now right.
Qed.

Lemma hreg_kpr w w' : hreg w' = hreg w -> forall x, kpr w' x = kpr w x /\ kord w' x = kord w x.
Proof.
  intros Hh x. destruct (hreg_parts w w' Hh) as (Hv & _). pose proof (sview_get hstat (w_hs w) (w_hs w') x Hv) as E. unfold kpr, kord.
  destruct (sm_get x (w_hs w')) as [h'|], (sm_get x (w_hs w)) as [h|]; cbn in E; try discriminate; [|auto].
  assert (E' : hstat h' = hstat h) by congruence. split; [exact (f_equal h_prio E')|exact (f_equal h_order E')].
Qed.

Lemma OInv_sub w w' : hreg w' = hreg w ->
  (forall j a', arch_at w' j = Some a' -> exists a, arch_at w j = Some a /\ lview a' = lview a) -> OInv w -> OInv w'.
Proof.
  intros Hh Hsub (O1 & O2 & O3). destruct (hreg_parts w w' Hh) as (_ & Ho & _ & Hg). pose proof (hreg_kpr w w' Hh) as Hk.
  split; [|split; [|now rewrite Ho]].
  - intros ai a' idx l Ha' Hl. destruct (Hsub _ _ Ha') as (a & Ha & Ev). injection Ev as _ El. rewrite El in Hl.
    eapply HlInv_ext; [|exact (O1 ai a idx l Ha Hl)]. intros x _. apply Hk.
  - intros idx l Hl. rewrite Hg in Hl. eapply HlInv_ext; [|exact (O2 idx l Hl)]. intros x _. apply Hk.
Qed.
Lemma OInv_frame w w' : hreg w' = hreg w -> lshape (w_archs w') = lshape (w_archs w) -> OInv w -> OInv w'.
Proof.
  intros Hh Hs. apply OInv_sub; [exact Hh|]. pose proof (aview_arch_at lview w w' Hs) as Ha.
  intros ai a' X. specialize (Ha ai). rewrite X in Ha. destruct (arch_at w ai) as [a|]; cbn in Ha; [|discriminate]. exists a. split; [reflexivity|congruence].
Qed.
Lemma O_move_entity w src dst nw : OInv w -> OInv (res_world (move_entity w src dst nw)).
Proof. apply OInv_frame; [apply hreg_hfix, (r_move_entity hfix); hfr|apply (aview_move_entity lview lview_rows lview_cap)]. Qed.
Lemma O_remove_entity w loc : OInv w -> OInv (res_world (remove_entity w loc)).
Proof. apply OInv_frame; [apply hreg_hfix, (r_remove_entity hfix); hfr|apply (aview_remove_entity lview lview_rows)]. Qed.
Lemma O_spawn_all w : OInv w -> OInv (res_world (spawn_all w)).
Proof. destruct (sstep_listen _ _ (ss_spawn w)) as [A B]. now apply OInv_frame. Qed.
Lemma O_upd_edges w ai i r : OInv w -> OInv (upd_arch w ai (fun a => set_edges a (i a) (r a))).
Proof. destruct (sstep_listen _ _ (ss_edges w ai i r)) as [A B]. now apply OInv_frame. Qed.
Lemma O_ev_drop w t tag ev : OInv w -> OInv (ev_drop w t tag ev).
Proof. destruct (sstep_listen _ _ (ss_quiet _ _ (quiet_ev_drop w t tag ev))) as [A B]. now apply OInv_frame. Qed.

Lemma reg_listeners_cases ai a h :
  a_listeners (fst (register_handler ai a h)) = a_listeners a \/
  exists ek, h_recv h = RvTargeted ek /\ a_listeners (fst (register_handler ai a h)) = listeners_insert (a_listeners a) (fst ek) (h_key h) (h_prio h).
Proof.
  unfold register_handler. destruct (ca_matches (arch_has a) (h_archfilter h)); destruct (h_recv h) as [ek|ek]; cbn [fst]; try (now left);
    (destruct (ca_matches (arch_has a) (h_filter h)); cbn [fst a_listeners set_tables]; [right; exists ek; split; reflexivity|now left]).
Qed.

Lemma listeners_insert_lookup ls ev hk p idx :
  alookup idx (listeners_insert ls ev hk p) =
    if idx =? ev then Some (hl_insert (match alookup ev ls with Some l => l | None => hl_new end) hk p) else alookup idx ls.
Proof.
  unfold listeners_insert. destruct (idx =? ev) eqn:E.
  - apply N.eqb_eq in E. subst idx. destruct (alookup ev ls); now rewrite alookup_ainsert_eq.
  - apply N.eqb_neq in E. destruct (alookup ev ls); now rewrite alookup_ainsert_neq by exact E.
Qed.

Lemma reg_lists_O w ai a h :
  (forall idx l, alookup idx (a_listeners a) = Some l -> HlW w l) ->
  kpr w (h_key h) = h_prio h ->
  (forall idx l x, alookup idx (a_listeners a) = Some l -> In x (hl_entries l) -> kord w x < kord w (h_key h)) ->
  forall idx l, alookup idx (a_listeners (fst (register_handler ai a h))) = Some l -> HlW w l.
Proof.
  intros Hall Hp Hlt idx l. destruct (reg_listeners_cases ai a h) as [->|(ek & _ & ->)]; [apply Hall|].
  rewrite listeners_insert_lookup. destruct (idx =? fst ek); [|apply Hall]. intros X. inversion X; subst l. rewrite <- Hp.
  apply HListProofs.insert_inv.
  - destruct (alookup (fst ek) (a_listeners a)) as [l0|] eqn:El; [eapply Hall; eauto|apply HListProofs.hl_new_inv].
  - intros x Hx. destruct (alookup (fst ek) (a_listeners a)) as [l0|] eqn:El; [eapply Hlt; eauto|destruct Hx].
Qed.

Lemma reg_lists_elems ai a h idx l x :
  alookup idx (a_listeners (fst (register_handler ai a h))) = Some l -> In x (hl_entries l) ->
  x = h_key h \/ exists l0, alookup idx (a_listeners a) = Some l0 /\ In x (hl_entries l0).
Proof.
  destruct (reg_listeners_cases ai a h) as [->|(ek & _ & ->)]; [intros; right; eauto|].
  rewrite listeners_insert_lookup. destruct (idx =? fst ek) eqn:E; [|intros; right; eauto]. apply N.eqb_eq in E. subst idx.
  intros X Hin. inversion X; subst l. apply hl_insert_in in Hin as [->|Hin]; [now left|].
  destruct (alookup (fst ek) (a_listeners a)) as [l0|]; [right; eauto|destruct Hin].
Qed.

(* the fold over by_insert_order (Archetype::new registers every handler, oldest first) *)
Lemma reg_fold_O w ai (L : list (N * key)) : forall a hs,
  StronglySorted (fun p q : N * key => fst p < fst q) L ->
  (forall o hk, In (o, hk) L -> kord w hk = o) ->
  (forall hk h, sm_get hk hs = Some h -> h_key h = hk /\ kpr w hk = h_prio h) ->
  (forall idx l, alookup idx (a_listeners a) = Some l -> HlW w l) ->
  (forall idx l x o hk, alookup idx (a_listeners a) = Some l -> In x (hl_entries l) -> In (o, hk) L -> kord w x < o) ->
  forall idx l, alookup idx (a_listeners (fst (fold_left (reg_step ai) L (a, hs)))) = Some l -> HlW w l.
Proof.
  intros a hs Hso Hord Hkey. rewrite (reg_fold_fst ai L hs a hs eq_refl). revert a Hso Hord.
  induction L as [|[o hk] L IH]; intros a Hso Hord Hall Hlt; cbn [fold_left snd]; [exact Hall|].
  apply StronglySorted_inv in Hso as [Hso' Hall'].
  assert (Hord' : forall o' hk', In (o', hk') L -> kord w hk' = o') by (intros; apply Hord; now right).
  destruct (sm_get hk hs) as [h|] eqn:E.
  - destruct (Hkey hk h E) as [Hk Hp]. apply (IH _ Hso' Hord').
    + apply (reg_lists_O w ai a h Hall); [now rewrite Hk|]. rewrite Hk. intros idx l x Hl Hx. rewrite (Hord o hk (or_introl eq_refl)). apply (Hlt idx l x o hk Hl Hx). now left.
    + intros idx l x o' hk' Hl Hx Hin'. destruct (reg_lists_elems ai a h idx l x Hl Hx) as [->|(l0 & Hl0 & Hx0)].
      * rewrite Hk, (Hord o hk (or_introl eq_refl)). rewrite Forall_forall in Hall'. exact (Hall' (o', hk') Hin').
      * apply (Hlt idx l0 x o' hk' Hl0 Hx0). now right.
  - apply (IH _ Hso' Hord' Hall). intros idx0 l0 x o' hk' A B C. apply (Hlt idx0 l0 x o' hk' A B). now right.
Qed.

Lemma create_arch_O w cs ins rem : HL w -> OInv w -> SlabInv (w_archs w) -> OInv (snd (create_arch w cs ins rem)).
Proof.
  intros ((S & H1 & H2 & H3 & H4) & _) (O1 & O2 & O3) Hs. destruct (create_arch_at w cs ins rem Hs) as [_ Hat]. revert Hat. rewrite create_arch_eq. cbn [snd]. intros Hat.
  set (vk := slab_vacant_key (w_archs w)) in *. set (a0 := mkA (w_auid w) cs [] 0 0 ins rem [] []) in *.
  split; [|split; [exact O2|exact O3]].
  intros ai a idx l Ha. rewrite Hat in Ha. destruct (ai =? vk); [|exact (O1 ai a idx l Ha)].
  inversion Ha; subst a. intros Hl. refine (_ (reg_fold_O w vk (w_horder w) a0 (w_hs w) O3 _ _ _ _ idx l)).
  - rewrite (reg_fold_new vk (w_horder w) (w_hs w) a0 eq_refl). intros X. exact (X Hl).
  - intros o hk Hin. destruct (H2 o hk Hin) as (h & X & Eo). unfold kord. unfold hlive in X. now rewrite X.
  - intros hk h X. destruct (H1 hk h X) as (A & _). split; [exact A|]. unfold kpr. now rewrite X.
  - intros i0 l0 X. discriminate.
  - intros i0 l0 x o hk X. discriminate.
Qed.
Lemma traverse_insert_O w src c : HL w -> OInv w -> SlabInv (w_archs w) -> OInv (res_world (traverse_insert w src c)).
Proof. intros HH HO Hs. apply traverse_insert_keeps; [exact (fun w1 => O_upd_edges w1 src)|intros; now apply create_arch_O|exact HO]. Qed.
Lemma traverse_remove_O w src c : HL w -> OInv w -> SlabInv (w_archs w) -> OInv (res_world (traverse_remove w src c)).
Proof. intros HH HO Hs. apply traverse_remove_keeps; [exact (fun w1 => O_upd_edges w1 src)|intros; now apply create_arch_O|exact HO]. Qed.
Lemma builtin_effect_O kind ev loc w : HL w -> OInv w -> SlabInv (w_archs w) -> OInv (res_world (builtin_effect kind ev loc w)).
Proof.
  intros HH HO Hs. apply builtin_effect_keeps; intros; auto using traverse_insert_O, traverse_remove_O, O_move_entity, O_spawn_all, O_remove_entity.
Qed.

(* like HL, and with HL: the lists change only when an archetype is created *)
Lemma O_stable : stable HL OInv.
Proof.
  intros w w' [w0 w1 S|w0 cs i r Hs _ _] HH HO; [|now apply create_arch_O]. destruct (sstep_listen _ _ S) as [A B]. exact (OInv_frame _ _ A B HO).
Qed.
Definition HLO_stable : stable (fun _ => True) (fun w => HL w /\ OInv w) := stable_and _ _ HL_stable O_stable.

Definition BI (w : world) : Prop := AI w /\ OInv w.
Lemma BI_parts w : BI w -> FInv w /\ HL w /\ OInv w.
Proof. intros [HA HO]. destruct (AI_parts _ HA) as (A & B & _). auto. Qed.

Lemma BI_kept : kept BI.
Proof. exact (kept_and AI HL OInv AI_kept (fun w H => proj1 (proj2 (AI_parts w H))) HL_stable O_stable). Qed.

Theorem deliver_one_O beh it w : WInv w -> HL w -> OInv w -> OInv (snd (fst (deliver_one beh it w))).
Proof. intros HW HH HO. exact (proj2 (stable_deliver_one beh _ HLO_stable it w HW (conj HH HO))). Qed.

Lemma OInv_conv w w2 : w_hs w2 = w_hs w -> w_horder w2 = w_horder w -> w_archs w2 = w_archs w -> w_glists w2 = w_glists w -> OInv w -> OInv w2.
Proof.
  intros A B C D (O1 & O2 & O3). unfold OInv, HlW, kpr, kord, arch_at in *. rewrite A, B, C, D. auto.
Qed.

Lemma nget_nrepeat_hl (gl : list (hlist key)) n idx l : nget (nrepeat_to gl n hl_new) idx = Some l -> nget gl idx = Some l \/ l = hl_new.
Proof. rewrite nget_nrepeat_to. destruct (nget gl idx); [now left|]. destruct (idx <? N.of_nat n); [|discriminate]. intros E. inversion E. now right. Qed.

Lemma gev_entry_O w tag k m : OInv w -> OInv (gev_entry_world w tag k m).
Proof.
  intros (O1 & O2 & O3). split; [exact O1|]. split; [|exact O3].
  intros idx l Hl. change (HlW (gev_entry_world w tag k m) l) with (HlW w l).
  destruct (nget_nrepeat_hl _ _ _ _ Hl) as [X| ->]; [exact (O2 idx l X)|apply HListProofs.hl_new_inv].
Qed.

Lemma sorted_snoc (L : list (N * key)) o k : StronglySorted (fun a b : N * key => fst a < fst b) L -> (forall o' k', In (o', k') L -> o' < o) ->
  StronglySorted (fun a b : N * key => fst a < fst b) (L ++ [(o, k)]).
Proof.
  induction 1 as [|[o1 k1] L S IH Hall]; intros Hlt; cbn [app]; [constructor; constructor|]. constructor.
  - apply IH. intros; eapply Hlt; right; eauto.
  - apply Forall_app. split; [exact Hall|]. constructor; [|constructor]. cbn [fst]. eapply Hlt. now left.
Qed.
Lemma sorted_filter {A} (R : A -> A -> Prop) (p : A -> bool) L : StronglySorted R L -> StronglySorted R (filter p L).
Proof.
  induction 1 as [|x L S IH Hall]; cbn [filter]; [constructor|]. destruct (p x); [|exact IH]. constructor; [exact IH|].
  rewrite Forall_forall in *. intros y Hy. apply filter_In in Hy as [Hy _]. now apply Hall.
Qed.

(* OInv, list by list *)
Lemma OInv_lists w : OInv w <->
  (forall ai a idx, arch_at w ai = Some a -> HlW w (la_at a idx)) /\ (forall idx, HlW w (gl_at (w_glists w) idx)) /\
  StronglySorted (fun a b : N * key => fst a < fst b) (w_horder w).
Proof.
  unfold OInv, la_at, gl_at. split; intros (O1 & O2 & O3); (split; [|split; [|exact O3]]).
  - intros ai a idx Ha. destruct (alookup idx (a_listeners a)) as [l|] eqn:El; [eapply O1; eauto|apply HListProofs.hl_new_inv].
  - intros idx. destruct (nget (w_glists w) idx) as [l|] eqn:El; [eapply O2; eauto|apply HListProofs.hl_new_inv].
  - intros ai a idx l Ha El. specialize (O1 ai a idx Ha). now rewrite El in O1.
  - intros idx l El. specialize (O2 idx). now rewrite El in O2.
Qed.
Lemma holds_live l hs p x : holds l (hmatch hs p) -> In x (hl_entries l) -> exists h, sm_get x hs = Some h.
Proof. intros [_ Hm] Hx. apply Hm in Hx as (h & X & _). eauto. Qed.
Lemma listeners_live w ai a idx l x : HL w -> arch_at w ai = Some a -> alookup idx (a_listeners a) = Some l -> In x (hl_entries l) ->
  exists h, sm_get x (w_hs w) = Some h.
Proof.
  intros [_ HL1] Ha El. pose proof (proj1 (proj1 (LInv_lists w) HL1) ai a idx Ha) as L1. unfold la_at in L1. rewrite El in L1.
  exact (holds_live _ _ _ x L1).
Qed.
Lemma glist_live w idx l x : HL w -> nget (w_glists w) idx = Some l -> In x (hl_entries l) -> exists h, sm_get x (w_hs w) = Some h.
Proof.
  intros [_ HL1] El. pose proof (proj2 (proj1 (LInv_lists w) HL1) idx) as L2. unfold gl_at in L2. rewrite El in L2.
  exact (holds_live _ _ _ x L2).
Qed.

(* one list when handler [k], younger than every live handler, enters with priority [pr] *)
Lemma HlW_entry w1 w3 k pr l (b : bool) :
  (forall x h, sm_get x (w_hs w1) = Some h -> kpr w3 x = kpr w1 x /\ kord w3 x = kord w1 x /\ kord w1 x < kord w3 k) -> kpr w3 k = pr ->
  (forall x, In x (hl_entries l) -> exists h, sm_get x (w_hs w1) = Some h) -> HlW w1 l -> HlW w3 (if b then hl_insert l k pr else l).
Proof.
  intros Hko Hp Hlive X.
  assert (X3 : HlW w3 l) by (eapply HlInv_ext; [|exact X]; intros x Hx; destruct (Hlive x Hx) as (h & Y); destruct (Hko x h Y) as (P1 & P2 & _); auto).
  destruct b; [|exact X3]. rewrite <- Hp. apply HListProofs.insert_inv; [exact X3|].
  intros x Hx. destruct (Hlive x Hx) as (h & Y). destruct (Hko x h Y) as (_ & P2 & P3). now rewrite P2.
Qed.

Lemma add_handler_entry_O w1 (f : key -> hinfo) k hs rv pr filt hby :
  HL w1 -> OInv w1 -> insert_with f (w_hs w1) = Some (k, hs) ->
  (forall k0, h_key (f k0) = k0 /\ h_order (f k0) = w_hctr w1 /\ h_recv (f k0) = rv /\ h_prio (f k0) = pr /\ h_filter (f k0) = filt) ->
  let gl := match rv with
            | RvGlobal ek =>
                let gl0 := nrepeat_to (w_glists w1) (N.to_nat (fst ek) + 1) hl_new in
                match nget gl0 (fst ek) with
                | Some l => nset gl0 (fst ek) (hl_insert l k pr)
                | None => gl0 end
            | RvTargeted _ => w_glists w1 end in
  OInv (archs_register_handler (set_hreg w1 hs gl hby (w_hctr w1 + 1) (w_horder w1 ++ [(w_hctr w1, k)])) k).
Proof.
  intros HH HO Ei Hf. pose proof HH as ((S & H1 & H2 & H3 & H4) & HL1). apply LInv_lists in HL1 as [L1 L2]. apply OInv_lists in HO as (O1 & O2 & O3).
  cbn zeta. rewrite (entry_eq w1 f k hs _ hby _ _ S Ei).
  set (hnew := f k). set (hf := reg_all_h w1 hnew). destruct (Hf k) as (Fk & Fo & Fr & Fp & Ff). fold hnew in Fk, Fo, Fr, Fp, Ff.
  pose proof (regs_h_static w1 _ hnew : hstat hf = hstat hnew) as B2.
  destruct (insert_upd_spec f (w_hs w1) k hs hf S Ei) as (Hfr & _ & B1 & C). clearbody hnew hf.
  match goal with |- OInv ?w => set (w3 := w) end.
  assert (Hkk : kpr w3 k = pr /\ kord w3 k = w_hctr w1).
  { unfold kpr, kord, w3. cbn [w_hs set_hreg]. rewrite B1, <- Fp, <- Fo. split; [exact (f_equal h_prio B2)|exact (f_equal h_order B2)]. }
  assert (Hko : forall x h, sm_get x (w_hs w1) = Some h -> kpr w3 x = kpr w1 x /\ kord w3 x = kord w1 x /\ kord w1 x < kord w3 k).
  { intros x h X. assert (Hne : x <> k) by (intros ->; congruence). rewrite (proj2 Hkk). unfold kpr, kord, w3. cbn [w_hs set_hreg]. rewrite (C x Hne), X.
    split; [reflexivity|]. split; [reflexivity|]. exact (proj2 (proj2 (H1 x h X))). }
  apply OInv_lists. split; [|split].
  - intros ai a3 idx Ha3. change (arch_at (reg_all_w hnew w1) ai = Some a3) in Ha3. rewrite reg_all_at in Ha3.
    destruct (arch_at w1 ai) as [a|] eqn:Ha; [|discriminate]. injection Ha3 as <-. rewrite reg_arch_la, Fk, Fp.
    exact (HlW_entry w1 w3 k pr _ _ Hko (proj1 Hkk) (fun x => holds_live _ _ _ x (L1 ai a idx Ha)) (O1 ai a idx Ha)).
  - intros idx. unfold w3. cbn [w_glists set_hreg]. rewrite gl_at_entry.
    exact (HlW_entry w1 w3 k pr _ _ Hko (proj1 Hkk) (fun x => holds_live _ _ _ x (L2 idx)) (O2 idx)).
  - unfold w3. cbn [w_horder set_hreg]. apply sorted_snoc; [exact O3|]. intros o' k' Hin. destruct (H2 o' k' Hin) as (h & X & Eo). rewrite <- Eo. exact (proj2 (proj2 (H1 k' h X))).
Qed.

Lemma handler_entry_O sh c w1 k w3 : HL w1 -> OInv w1 -> handler_entry sh c w1 = inr (k, w3) -> OInv w3.
Proof.
  intros HH HO H. destruct (handler_entry_inv sh c w1 k w3 H) as (rv & acc & hs & _ & _ & Ei & ->).
  eapply (add_handler_entry_O w1 _ k hs rv (sh_prio sh) (cf_filter c)); [exact HH|exact HO|exact Ei|]. intros k0. repeat split.
Qed.

(* one list when handler [k] leaves *)
Lemma HlW_exit w w3 k l (b : bool) : (forall x, x <> k -> kpr w3 x = kpr w x /\ kord w3 x = kord w x) -> NoDup (hl_entries l) ->
  (b = false -> ~ In k (hl_entries l)) -> HlW w l -> HlW w3 (if b then hl_remove key_eqb l k else l).
Proof.
  intros Hkp Hnd Hb X.
  assert (Hxfer : forall l0, ~ In k (hl_entries l0) -> HlW w l0 -> HlW w3 l0).
  { intros l0 Hn Y. eapply HlInv_ext; [|exact Y]. intros x Hx. apply Hkp. intros ->. contradiction. }
  destruct b; [|apply Hxfer; auto]. apply Hxfer; [intros Y; apply (hl_remove_spec l k Hnd) in Y as [_ Y]; now apply Y|].
  apply (HListProofs.remove_inv key_eqb key_eqb_spec). exact X.
Qed.

Lemma remove_handler_entry_O w k h hs' hby :
  HL w -> OInv w -> sm_remove k (w_hs w) = Some (h, hs') ->
  let gl := match h_recv h with
            | RvGlobal ek => match nget (w_glists w) (fst ek) with
                             | Some l => nset (w_glists w) (fst ek) (hl_remove key_eqb l k)
                             | None => w_glists w end
            | RvTargeted _ => w_glists w end in
  OInv (archs_remove_handler (set_hreg w hs' gl hby (w_hctr w) (filter (fun p => negb (fst p =? h_order h)) (w_horder w))) h).
Proof.
  intros HH HO Er. pose proof HH as ((S & H1 & _) & HL1). apply LInv_lists in HL1 as [L1 L2]. apply OInv_lists in HO as (O1 & O2 & O3). cbn zeta.
  pose proof (remove_get_self k (w_hs w) h hs' Er) as Hk. destruct (H1 k h Hk) as (Hkk & _).
  assert (Hoth : forall x, x <> k -> sm_get x hs' = sm_get x (w_hs w)) by (intros; eapply remove_get_other; eauto).
  match goal with |- OInv ?x => set (w3 := x) end.
  assert (Hkp : forall x, x <> k -> kpr w3 x = kpr w x /\ kord w3 x = kord w x) by (intros x Hne; unfold kpr, kord; change (w_hs w3) with hs'; now rewrite (Hoth x Hne)).
  (* [k] sits only in the lists that [h] belongs to *)
  assert (Hin : forall l p, holds l (hmatch (w_hs w) p) -> p h = false -> ~ In k (hl_entries l)).
  { intros l p [_ Hm] E X. apply Hm in X as (h0 & X & Y). rewrite Hk in X. injection X as <-. congruence. }
  apply OInv_lists. split; [|split].
  - intros ai a3 idx Ha3. unfold w3 in Ha3. rewrite archs_remove_handler_at in Ha3. change (option_map (rm_arch h) (arch_at w ai) = Some a3) in Ha3.
    destruct (arch_at w ai) as [a|] eqn:Ha; [|discriminate]. injection Ha3 as <-. rewrite rm_la, Hkk.
    apply (HlW_exit w w3 k _ _ Hkp (proj1 (L1 ai a idx Ha))); [|exact (O1 ai a idx Ha)]. intros E. apply (Hin _ _ (L1 ai a idx Ha)).
    unfold listens. unfold tlistens in E. destruct (h_recv h); [reflexivity|]. now rewrite E.
  - intros idx. change (w_glists w3) with (match h_recv h with
         | RvGlobal ek => match nget (w_glists w) (fst ek) with Some l => nset (w_glists w) (fst ek) (hl_remove key_eqb l k) | None => w_glists w end
         | RvTargeted _ => w_glists w end). rewrite gl_at_remove.
    apply (HlW_exit w w3 k _ _ Hkp (proj1 (L2 idx))); [|exact (O2 idx)]. exact (Hin _ _ (L2 idx)).
  - change (w_horder w3) with (filter (fun p => negb (fst p =? h_order h)) (w_horder w)). now apply sorted_filter.
Qed.

Lemma handler_exit_O w1 k h w2 : HL w1 -> OInv w1 -> handlers_remove w1 k = Some (h, w2) -> OInv (archs_remove_handler w2 h).
Proof.
  intros HH HO Eh. destruct (handlers_remove_inv w1 k h w2 Eh) as (hs & Er & ->).
  exact (remove_handler_entry_O w1 k h hs _ HH HO Er).
Qed.

Lemma archs_remove_component_O cidx ctag w l : OInv w -> OInv (archs_remove_component w cidx ctag l).
Proof. destruct (arc_sub cidx ctag w l). now apply OInv_sub. Qed.

Lemma comp_exit_O w k ci m : OInv w -> OInv (comp_exit_world w k ci m).
Proof.
  intros H. unfold comp_exit_world. set (w1 := set_comps w m (aremove (c_tag ci) (w_cby w))).
  apply (OInv_conv (archs_remove_component w1 (fst k) (c_tag ci) (c_member_of ci))); try reflexivity.
  apply archs_remove_component_O. apply (OInv_conv w); try reflexivity. exact H.
Qed.

(* over AI, which provides HL where a handler enters or leaves *)
Definition OInv_over beh : Layer beh AI.
Proof.
  apply (plain beh OInv); [|intros q w HA H _; exact (proj2 (kept_flush beh BI BI_kept q w (conj HA H)))]. intros b w w' Hp HA H _.
  destruct Hp as [w w' Hq|w tag k m _ _|w tag k m _ _|w0 tag kind k m _ _ _ _|sh w c w1 k w3 _ _ Eh|w1 k h w2 Eh|k w w1 w2 info m _ _ _ _ _|k w w1 w2 info m _ _ _ _ _].
  - exact (O_stable _ _ (st_same (ss_quiet _ _ Hq)) (proj1 (proj2 (AI_parts _ HA))) H).
  - now apply gev_entry_O.
  - apply (OInv_conv w); [..|exact H]; reflexivity.
  - destruct kind; apply (OInv_conv w0); try reflexivity; exact H.
  - exact (handler_entry_O sh c w1 k w3 (proj2 (proj1 HA)) H Eh).
  - exact (handler_exit_O w1 k h w2 (proj2 (proj1 HA)) H Eh).
  - apply (OInv_conv w2); [..|exact H]; reflexivity.
  - unfold tev_exit_world. cbv zeta. destruct (e_kind info); apply (OInv_conv w2); try reflexivity; exact H.
Defined.

Lemma OInv_comp_exit beh : comp_exit_ok (OInv_over beh).
Proof. intros k w w1 dk w2 w3 w4 ci w5 ci' m _ _ _ _ _ _ _ _ _ _ _ _ _ _ _ _ _ H5 _ _. exact (comp_exit_O w5 k ci' m H5). Qed.

Definition BI_layer beh : Layer beh (fun _ => True) := stack (AI_layer beh) (OInv_over beh) (fun w _ H => proj1 (AI_layer_J beh w) H).
Lemma BI_layer_J beh w : lJ (BI_layer beh) w <-> BI w.
Proof. split; intros [A B]; (split; [|exact B]); [exact (proj1 (AI_layer_J beh w) A)|exact (proj2 (AI_layer_J beh w) A)]. Qed.
Lemma BI_comp_exit beh : comp_exit_ok (BI_layer beh).
Proof. apply stack_comp_exit; [apply AI_comp_exit|apply OInv_comp_exit]. Qed.

Section Ops.
Variable beh : hinfo -> logent -> N -> script.

Lemma tri_BI {A} w (r : res A) Q : tri beh (BI_layer beh) w r Q -> BI (res_world r).
Proof. intros H. exact (proj1 (BI_layer_J beh _) (proj1 (tri_J beh _ r w Q H))). Qed.
Lemma keeps_BI {A} (r : res A) : keeps beh (BI_layer beh) r -> BI (res_world r).
Proof. intros H. exact (proj1 (BI_layer_J beh _) (proj1 H)). Qed.

Lemma flush_BI q w : BI w -> BI (res_world (flush beh q w)).
Proof. exact (kept_flush beh BI BI_kept q w). Qed.
Lemma rbind_BI {A B} (r : res A) (f : A -> world -> res B) :
  BI (res_world r) -> (forall a w, BI w -> BI (res_world (f a w))) -> BI (res_world (rbind r f)).
Proof. apply rbind_K. Qed.
Lemma gev_BI fuel : forall tag w, BI w ->
  BI (res_world (add_global_event beh fuel tag w)) /\ forall ev, BI (res_world (send_global beh fuel tag ev w)).
Proof.
  intros tag w H. destruct (gev_tri beh (BI_layer beh) fuel tag w (proj2 (BI_layer_J beh w) H)) as [A B].
  split; [exact (tri_BI _ _ _ A)|intros ev; exact (tri_BI _ _ _ (B ev))].
Qed.
Lemma send_global_BI tag ev w : BI w -> BI (res_world (send_global beh RFUEL tag ev w)).
Proof. intros H. exact (tri_BI _ _ _ (send_global_tri beh (BI_layer beh) tag ev w (proj2 (BI_layer_J beh w) H))). Qed.
Lemma add_global_event_BI tag w : BI w -> BI (res_world (add_global_event beh RFUEL tag w)).
Proof. intros H. exact (tri_BI _ _ _ (add_global_event_tri beh (BI_layer beh) tag w (proj2 (BI_layer_J beh w) H))). Qed.
Lemma add_component_BI tag w : BI w -> BI (res_world (add_component beh tag w)).
Proof. intros H. exact (tri_BI _ _ _ (add_component_tri beh (BI_layer beh) tag w (proj2 (BI_layer_J beh w) H))). Qed.
Lemma tev_stage1_BI tag w : BI w -> BI (res_world (tev_stage1 beh tag w)).
Proof. intros H. exact (tri_BI _ _ _ (tev_stage1_tri beh (BI_layer beh) tag w (proj2 (BI_layer_J beh w) H))). Qed.
Lemma add_targeted_event_BI tag w : BI w -> BI (res_world (add_targeted_event beh tag w)).
Proof. intros H. exact (tri_BI _ _ _ (add_targeted_event_tri beh (BI_layer beh) tag w (proj2 (BI_layer_J beh w) H))). Qed.
Lemma BI_ev_drop w t tag ev : BI w -> BI (ev_drop w t tag ev).
Proof. intros [A B]. split; [now apply AI_ev_drop|now apply O_ev_drop]. Qed.
Lemma send_to_BI tag target ev w : BI w -> BI (res_world (send_to beh tag target ev w)).
Proof. intros H. exact (tri_BI _ _ _ (send_to_tri beh (BI_layer beh) tag target ev w (proj2 (BI_layer_J beh w) H))). Qed.
Theorem op_spawn_BI w : BI w -> BI (res_world (op_spawn beh w)).
Proof. intros H. exact (tri_BI _ _ _ (op_spawn_tri beh (BI_layer beh) w (proj2 (BI_layer_J beh w) H))). Qed.
Theorem op_insert_BI e ktag w : BI w -> BI (res_world (op_insert beh e ktag w)).
Proof. intros H. exact (tri_BI _ _ _ (op_insert_tri beh (BI_layer beh) e ktag w (proj2 (BI_layer_J beh w) H))). Qed.
Theorem op_remove_BI e ktag w : BI w -> BI (res_world (op_remove beh e ktag w)).
Proof. exact (send_to_BI _ e _ w). Qed.
Theorem op_despawn_BI e w : BI w -> BI (res_world (op_despawn beh e w)).
Proof. exact (send_to_BI _ e _ w). Qed.
Theorem op_send_BI gtag w : BI w -> BI (res_world (op_send beh gtag w)).
Proof. intros H. exact (tri_BI _ _ _ (op_send_tri beh (BI_layer beh) gtag w (proj2 (BI_layer_J beh w) H))). Qed.
Theorem op_send_to_BI e ttag w : BI w -> BI (res_world (op_send_to beh e ttag w)).
Proof. intros H. exact (tri_BI _ _ _ (op_send_to_tri beh (BI_layer beh) e ttag w (proj2 (BI_layer_J beh w) H))). Qed.
Lemma resolve_query_BI q : forall w, BI w -> BI (res_world (resolve_query beh q w)).
Proof. intros w H. exact (tri_BI _ _ _ (resolve_query_tri beh (BI_layer beh) q w (proj2 (BI_layer_J beh w) H))). Qed.
Lemma register_set_BI evs : forall w, BI w -> BI (res_world (register_set beh evs w)).
Proof. intros w H. exact (tri_BI _ _ _ (register_set_tri beh (BI_layer beh) evs w (proj2 (BI_layer_J beh w) H))). Qed.
Lemma init_param_BI p c w : BI w -> BI (res_world (init_param beh p c w)).
Proof. intros H. exact (tri_BI _ _ _ (init_param_tri beh (BI_layer beh) p c w (proj2 (BI_layer_J beh w) H))). Qed.
Lemma init_params_BI ps : forall c w, BI w -> BI (res_world (init_params beh ps c w)).
Proof. intros c w H. exact (tri_BI _ _ _ (init_params_tri beh (BI_layer beh) ps c w (proj2 (BI_layer_J beh w) H))). Qed.
Theorem add_handler_BI sh w : BI w -> BI (res_world (add_handler beh sh w)).
Proof. intros H. exact (tri_BI _ _ _ (add_handler_tri beh (BI_layer beh) sh w (proj2 (BI_layer_J beh w) H))). Qed.
Theorem remove_handler_BI k w : BI w -> BI (res_world (remove_handler beh k w)).
Proof. intros H. exact (keeps_BI _ (remove_handler_keeps beh (BI_layer beh) k w (proj2 (BI_layer_J beh w) H))). Qed.
Lemma remove_handlers_BI ks : forall w, BI w -> BI (res_world (remove_handlers beh ks w)).
Proof. intros w H. exact (keeps_BI _ (remove_handlers_keeps beh (BI_layer beh) ks w (proj2 (BI_layer_J beh w) H))). Qed.
Theorem remove_global_event_BI k w : BI w -> BI (res_world (remove_global_event beh k w)).
Proof. intros H. exact (keeps_BI _ (remove_global_event_keeps beh (BI_layer beh) k w (proj2 (BI_layer_J beh w) H))). Qed.
Theorem remove_targeted_event_BI k w : BI w -> BI (res_world (remove_targeted_event beh k w)).
Proof. intros H. exact (keeps_BI _ (remove_targeted_event_keeps beh (BI_layer beh) k w (proj2 (BI_layer_J beh w) H))). Qed.
Lemma remove_tevents_BI ks : forall w, BI w -> BI (res_world (remove_tevents beh ks w)).
Proof. intros w H. exact (keeps_BI _ (remove_tevents_keeps beh (BI_layer beh) ks w (proj2 (BI_layer_J beh w) H))). Qed.
Theorem remove_component_BI k w : BI w -> BI (res_world (remove_component beh k w)).
Proof. intros H. exact (keeps_BI _ (remove_component_keeps beh (BI_layer beh) k w (BI_comp_exit beh) (proj2 (BI_layer_J beh w) H))). Qed.
End Ops.

Lemma run_top_all_BI beh w o : BI w -> BI (run_top_all beh w o).
Proof. intros H. exact (proj1 (BI_layer_J beh _) (run_top_all_keeps beh (BI_layer beh) (BI_comp_exit beh) w o (proj2 (BI_layer_J beh w) H))). Qed.

Lemma BI_world0 fuel p : BI (world0 fuel p).
Proof.
  split; [apply AI_world0|]. unfold OInv, world0, arch_at. cbn [w_glists w_horder w_archs]. split; [|split; [|constructor]].
  - intros ai a idx l Ha. unfold slab_get in Ha. cbn [sl_entries nget] in Ha. destruct (ai =? 0); [|discriminate]. inversion Ha; subst. discriminate.
  - intros idx l H. discriminate.
Qed.

Theorem reachable_BI beh fuel p ops : BI (fold_left (run_top_all beh) ops (world0 fuel p)).
Proof.
  exact (proj1 (BI_layer_J beh _) (history_keeps beh (BI_layer beh) ops _ (BI_comp_exit beh) (proj2 (BI_layer_J beh _) (BI_world0 fuel p)))).
Qed.

(* C07: the handlers of a delivery are sorted by priority, then by the order they were added *)
Theorem delivered_to_sorted w it : OInv w ->
  StronglySorted (HListProofs.before_in_order (kpr w) (kord w)) (delivered_to w it).
Proof.
  intros (O1 & O2 & _). unfold delivered_to, glist_of, listeners_of. destruct (qi_targeted it).
  - destruct (sm_get (qi_target it) (w_ents w)) as [loc|]; [|constructor]. destruct (slab_get (w_archs w) (fst loc)) as [a|] eqn:Ha; [|constructor].
    destruct (alookup (qi_idx it) (a_listeners a)) as [l|] eqn:El; [|constructor]. apply HListProofs.hl_sorted. exact (O1 (fst loc) a (qi_idx it) l Ha El).
  - destruct (nget (w_glists w) (qi_idx it)) as [l|] eqn:El; [|constructor]. apply HListProofs.hl_sorted. exact (O2 (qi_idx it) l El).
Qed.

Global Opaque BI_layer.
