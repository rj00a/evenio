(* EvLedger.v : conservation of values across a whole flush (C11, C12, C13).
   Every value with a destructor that the world holds - stored component values and the payloads of
   queued events - is, after any flush (completed or unwound by a panic), either still stored or
   destroyed exactly once; and everything destroyed was held or was sent during the flush. *)
From Coq Require Import List NArith Bool Lia Sorted Permutation.
Import ListNotations.
Require Import EV.Base EV.ListN EV.Access EV.Query EV.SlotMap EV.Reserve EV.HList EV.Loop EV.World EV.SlotMapGet
  EV.AccessProofs EV.ArchProofs EV.QueryProofs EV.WorldFrame EV.Layer EV.Store EV.Graph EV.Effects EV.Reach EV.RemoveComp EV.Member EV.Listen EV.Order EV.Fetch EV.Ledger EV.NoUB EV.Sender EV.Users.
Open Scope N_scope.

Lemma tracked_bump tg (g : N * cval -> cval) : (forall c v, fst (g (c, v)) = fst v) ->
  forall comps vals, tracked_cv tg (combine comps (map g (combine comps vals) ++ skipn (length comps) vals)) = tracked_cv tg (combine comps vals).
Proof.
  intros Hg. induction comps as [|c cs IH]; intros vals; [reflexivity|]. destruct vals as [|v vs]; [reflexivity|].
  cbn [combine map app length skipn]. unfold tracked_cv in *. cbn [flat_map]. rewrite Hg. f_equal. apply IH.
Qed.
Lemma rstored_bump tg a zst muts d vals : rstored tg a (bump_vals zst (a_comps a) muts d vals) = rstored tg a vals.
Proof. unfold rstored, bump_vals. apply tracked_bump. intros c v. now destruct (_ && _). Qed.

Lemma stored_write_arch w q d ai r : Permutation (stored (write_arch w q d ai r)) (stored w).
Proof.
  unfold write_arch. destruct (slab_get (w_archs w) ai) as [a|] eqn:Ha; [|reflexivity]. destruct (arch_state (has_of a) q) as [st|]; [|reflexivity].
  cbv zeta. erewrite stored_set_eq; [reflexivity|exact Ha|reflexivity|reflexivity|]. rewrite astored_rows. unfold astored. destruct r as [row|].
  - destruct (nget (a_rows a) row) as [[e vals]|] eqn:Hr; [|reflexivity]. destruct (nget_split _ _ _ Hr) as (l1 & l2 & El & Hn). rewrite El, <- Hn, nset_app_mid.
    rewrite !flat_map_app. cbn [flat_map snd]. now rewrite rstored_bump.
  - rewrite flat_map_concat_map, map_map, <- flat_map_concat_map. apply flat_map_ext. intros [e vals]. apply rstored_bump.
Qed.

Definition lv (w : world) := (w_archs w, w_comps w, registries w).
Lemma lv_ev_drop w t tag ev : lv (ev_drop w t tag ev) = lv w. Proof. apply (r_ev_drop lv). fr. Qed.
Lemma stored_lv w' w : lv w' = lv w -> stored w' = stored w.
Proof. intros H. apply stored_same; [exact (f_equal (fun x => fst (fst x)) H)|exact (f_equal (fun x => snd (fst x)) H)]. Qed.

Definition ledger_ok (w w' : world) (fl : option fail) : Prop :=
  lv w' = lv w /\ exists R, w_drops w' = w_drops w ++ R /\ (fl = None -> R = []).
Definition lvd (w : world) := (lv w, w_drops w).

(* What a handler does to the ledger, relative to the world [w0] it started from: it destroys a value only when it panics
   (the event a Sender refused).  [rel] is what it keeps beside: [lv] for the body, the multiset of stored values for the
   handler with its writes. *)
Section LedP.
Variable rel : world -> world -> Prop.
Hypothesis rel_lv : forall w0 w w', lv w' = lv w -> rel w0 w -> rel w0 w'.
Definition ledP (w0 w : world) (_ : list qitem) (fl : option fail) : Prop :=
  rel w0 w /\ exists R, w_drops w = w_drops w0 ++ R /\ (fl = None -> R = []).
Lemma ledP_lvd w0 w w' s s' fl : lvd w' = lvd w -> ledP w0 w s fl -> ledP w0 w' s' fl.
Proof. intros H [A (R & D & F)]. split; [exact (rel_lv _ _ _ (f_equal fst H) A)|]. exists R. split; [rewrite <- D; exact (f_equal snd H)|exact F]. Qed.
Lemma ledP_bwalks w0 : bwalks (ledP w0) (fun _ _ _ => True) (fun _ => True).
Proof.
  assert (Hres : forall w s fl, ledP w0 w s fl -> ledP w0 (res_world (reserve w)) s fl) by (intros w s fl; apply ledP_lvd, (r_reserve lvd (fun _ _ _ => eq_refl))).
  split.
  - intros w s ids fuel ser. now apply ledP_lvd.
  - intros w s tg tag idx target ev _ _ H. exact H.
  - intros w s id w1 idx _ Er H. apply Hres in H. now rewrite Er in H.
  - intros w s f _ [A (R & D & F)]. split; [exact A|]. exists R. split; [exact D|discriminate].
  - intros w s f H. split; [|now apply Hres]. destruct H as [A (R & D & _)]. intros tg tag ev.
    split; [exact (rel_lv _ _ _ (r_ev_drop lv (fun _ _ => eq_refl) w tg tag ev) A)|]. exists (R ++ ev_entry tg tag ev). split; [now rewrite ev_drop_spec, D, app_assoc|discriminate].
  - exact (fun _ => I).
Qed.
End LedP.

Lemma ledger_ok_same w0 w w' fl : lvd w = lvd w0 -> ledger_ok w w' fl -> ledger_ok w0 w' fl.
Proof. intros H [C (R & D & E)]. split; [exact (eq_trans C (f_equal fst H))|]. exists R. split; [|exact E]. rewrite D. exact (f_equal (fun x => x ++ R) (f_equal snd H)). Qed.

Lemma run_actions_ledger acts : forall ps t fresh sent w,
  ledger_ok w (snd (fst (run_actions acts ps t fresh sent w))) (snd (run_actions acts ps t fresh sent w)).
Proof.
  intros ps t fresh sent w.
  apply (body_rule _ _ _ (ledP_bwalks (fun w0 w' => lv w' = lv w0) (fun _ _ _ H1 H2 => eq_trans H1 H2) w) ps (fun _ _ _ _ => I) acts t fresh [] sent w).
  split; [reflexivity|]. exists []. split; [now rewrite app_nil_r|reflexivity].
Qed.

Section WithBeh.
Variable beh : hinfo -> logent -> N -> script.

(* what one handler invocation / the handler phase of a delivery does to the ledger *)
Definition hledger (w w' : world) (fl : option fail) (tail : list (N * N)) : Prop :=
  registries w' = registries w /\ w_comps w' = w_comps w /\ Permutation (stored w') (stored w) /\
  exists R, w_drops w' = w_drops w ++ R ++ tail /\ (fl = None -> R = []).
Lemma hledger_led w w' fl tail : hledger w w' fl tail -> exists R, led w w' (R ++ tail) (R ++ tail) /\ (fl = None -> R = []).
Proof. intros (_ & _ & P & R & D & F). exists R. split; [split; [exact D|now rewrite P]|exact F]. Qed.

Definition relH (w0 w : world) : Prop := registries w = registries w0 /\ w_comps w = w_comps w0 /\ Permutation (stored w) (stored w0).
Lemma relH_lv w0 w w' : lv w' = lv w -> relH w0 w -> relH w0 w'.
Proof. intros H (A & B & C). split; [rewrite <- A; exact (f_equal snd H)|]. split; [rewrite <- B; exact (f_equal (fun x => snd (fst x)) H)|now rewrite (stored_lv _ _ H)]. Qed.
Lemma ledH_walks w0 : walks (ledP relH w0) (fun _ _ _ => True) (fun _ => True).
Proof.
  split; [exact (ledP_bwalks relH relH_lv w0)|intros w s le; now apply (ledP_lvd relH relH_lv)|].
  intros w s q d ai r [(A & B & C) (R & D & F)]. split.
  - split; [now rewrite (r_write_arch registries) by fr|]. split; [now rewrite (r_write_arch w_comps) by fr|now rewrite stored_write_arch].
  - exists R. split; [now rewrite (r_write_arch w_drops) by fr|exact F].
Qed.
Lemma ledH_refl w s : ledP relH w w s None.
Proof. split; [split; [|split]; reflexivity|]. exists []. split; [now rewrite app_nil_r|reflexivity]. Qed.
Lemma ledH_hledger w0 w s fl : ledP relH w0 w s fl -> hledger w0 w fl [].
Proof. intros [(A & B & C) (R & D & F)]. split; [exact A|split; [exact B|split; [exact C|]]]. exists R. now rewrite app_nil_r. Qed.

Lemma ev_entry_ser t tag ev ev' : ev_ser ev' = ev_ser ev -> ev_entry t tag ev' = ev_entry t tag ev.
Proof. intros E. unfold ev_entry. now rewrite E. Qed.

Lemma hledger_ev_drop w0 w1 fl tg tag ev : hledger w0 w1 fl [] -> hledger w0 (ev_drop w1 tg tag ev) fl (ev_entry tg tag ev).
Proof.
  intros (A1 & A2 & A3 & (R & A4 & A5)). pose proof (r_ev_drop lv (fun _ _ => eq_refl) w1 tg tag ev) as L.
  split; [rewrite <- A1; exact (f_equal snd L)|]. split; [rewrite <- A2; exact (f_equal (fun x => snd (fst x)) L)|]. split; [now rewrite (stored_lv _ _ L)|].
  exists R. split; [rewrite ev_drop_spec, A4, !app_nil_r, <- app_assoc; reflexivity|exact A5].
Qed.

Lemma apply_writes_frame w ps loc d : registries (apply_writes w ps loc d) = registries w /\ w_comps (apply_writes w ps loc d) = w_comps w /\ w_drops (apply_writes w ps loc d) = w_drops w.
Proof. repeat split; [apply (r_apply_writes registries)|apply (r_apply_writes w_comps)|apply (r_apply_writes w_drops)]; fr. Qed.
Lemma stored_apply_writes w ps loc d : Permutation (stored (apply_writes w ps loc d)) (stored w).
Proof. apply (apply_writes_keeps (fun w' => Permutation (stored w') (stored w))); [intros w0 q d0 ai r H; now rewrite stored_write_arch|reflexivity]. Qed.
Lemma hledger_trans w0 w1 w2 fl t : hledger w0 w1 None [] -> hledger w1 w2 fl t -> hledger w0 w2 fl t.
Proof.
  intros (A1 & A2 & A3 & (R1 & A4 & A5)) (B1 & B2 & B3 & (R2 & B4 & B5)). rewrite (A5 eq_refl) in A4. rewrite !app_nil_r in A4.
  split; [congruence|]. split; [congruence|]. split; [etransitivity; eauto|]. exists R2. split; [congruence|exact B5].
Qed.
Lemma run_handler_ledger w h it tag loc : let r := fst (run_handler beh w h it tag loc) in
  hledger w (snd (run_handler beh w h it tag loc)) (hr_fail r) [] /\ ev_ser (hr_ev r) = ev_ser (qi_ev it) /\ (hr_taken r = true -> hr_fail r = None \/ hr_fail r = Some (FPanic 6)).
Proof.
  cbn zeta. destruct (run_handler_ev beh w h it tag loc) as (E1 & _ & E3). split; [|split; [exact E1|intros X; exact (proj1 (E3 X))]].
  eapply ledH_hledger. apply (handler_rule _ _ _ (ledH_walks w) beh w h it tag loc []); [exact (fun _ _ _ _ => I)|exact (fun _ _ => I)|apply ledH_refl].
Qed.

(* the handler phase: the event keeps its identity; if a handler took it, it has been destroyed (once) by then *)
Lemma run_handlers_ledger hl : forall w it tag loc sent,
  let '(w1, ev, sent', taken, fl) := run_handlers beh hl w it tag loc sent in
  ev_ser ev = ev_ser (qi_ev it) /\ hledger w w1 fl (if taken then ev_entry (qi_targeted it) tag ev else []) /\ (taken = true -> fl = None \/ fl = Some (FPanic 6)).
Proof.
  intros w it tag loc sent.
  pose proof (handlers_rule _ _ _ (ledH_walks w) beh hl w it tag loc sent (ready_any _ _ hl loc w (fun _ _ _ => I) (fun _ => I)) (ledH_refl w sent)) as H.
  pose proof (run_handlers_ev beh hl w it tag loc sent) as Hev.
  destruct (run_handlers beh hl w it tag loc sent) as [[[[w1 ev] sent'] taken] fl]. destruct H as (w' & H & _ & ->). destruct Hev as (E1 & _ & E3).
  apply ledH_hledger in H. split; [exact E1|]. split; [destruct taken; [now apply hledger_ev_drop|exact H]|intros X; exact (proj1 (E3 X))].
Qed.

(* the registered kind of an event agrees with its type tag, as far as the ledger is concerned *)
Definition kind_tag_ok (w : world) (targeted : bool) (tag : N) (kind : ekind) : Prop :=
  match kind with
  | KNormal => True
  | KInsert c => targeted = true /\ tag = 20 + comp_tag w c /\ comp_tag w c < 20
  | _ => forall ev, ev_entry targeted tag ev = []
  end.
Definition item_info (w : world) (it : qitem) : option einfo :=
  match get_by_index (if qi_targeted it then w_tev w else w_gev w) (qi_idx it) with Some (_, i) => Some i | None => None end.
Definition item_tag_ok (w : world) (it : qitem) : Prop :=
  match item_info w it with Some info => kind_tag_ok w (qi_targeted it) (e_tag info) (e_kind info) | None => False end.

(* [kind_tag_ok] mentions the tags of components only where they are below 20 (the components whose values the ledger
   follows): it survives as long as those keep their tag *)
Definition tag_le (w' w : world) : Prop := forall c, comp_tag w c < 20 -> comp_tag w' c = comp_tag w c.
Lemma kind_tag_ok_le w' w t tag kind : tag_le w' w -> kind_tag_ok w t tag kind -> kind_tag_ok w' t tag kind.
Proof. intros H. destruct kind; cbn [kind_tag_ok]; auto. intros (A & B & C). now rewrite (H _ C). Qed.
Lemma kind_tag_ok_ext w' w t tag kind : (forall c, comp_tag w' c = comp_tag w c) -> kind_tag_ok w t tag kind -> kind_tag_ok w' t tag kind.
Proof. intros H. apply kind_tag_ok_le. intros c _. apply H. Qed.

Lemma item_info_found w it k info : get_by_index (if qi_targeted it then w_tev w else w_gev w) (qi_idx it) = Some (k, info) ->
  item_info w it = Some info /\ item_tag w it = e_tag info.
Proof. unfold item_info, item_tag. destruct (qi_targeted it); intros ->; split; reflexivity. Qed.
Lemma item_tag_info w it info : item_info w it = Some info -> item_tag w it = e_tag info.
Proof.
  unfold item_info. destruct (get_by_index _ _) as [[k i]|] eqn:E; [|discriminate]. intros [= ->]. exact (proj2 (item_info_found w it k info E)).
Qed.

Definition dledger (w : world) (it : qitem) (w' : world) (fl : option fail) : Prop :=
  exists nd X, w_drops w' = w_drops w ++ nd /\
    Permutation (stored w' ++ nd) (stored w ++ ev_entry (qi_targeted it) (item_tag w it) (qi_ev it) ++ X) /\ (fl = None -> X = []).
Lemma dledger_of_led w it w' fl nd X :
  led w w' nd (X ++ ev_entry (qi_targeted it) (item_tag w it) (qi_ev it)) -> (fl = None -> X = []) -> dledger w it w' fl.
Proof. intros [D P] F. exists nd, X. split; [exact D|]. split; [|exact F]. now rewrite (Permutation_app_comm _ X). Qed.

Lemma effect_adds_entry w tg tag kind ev : kind <> KNormal -> kind_tag_ok w tg tag kind -> effect_adds w kind ev = ev_entry tg tag ev.
Proof.
  destruct kind as [|c|c| |]; cbn [kind_tag_ok effect_adds]; intros Hk H; try (symmetry; apply H); [contradiction|].
  destruct H as (-> & -> & Hlt). unfold tracked_cv, ev_entry. cbn [flat_map fst app].
  replace ((20 <=? 20 + comp_tag w c) && (20 + comp_tag w c <? 40)) with true by (symmetry; apply andb_true_iff; split; [apply N.leb_le|apply N.ltb_lt]; lia).
  replace (20 + comp_tag w c - 20) with (comp_tag w c) by lia. apply app_nil_r.
Qed.

Lemma insert_entry w c tag ev : tag = 20 + comp_tag w c -> comp_tag w c < 20 ->
  tracked_cv (comp_tag w) [(c, (ev_ser ev, ev_val ev))] = ev_entry true tag ev.
Proof. intros A B. apply (effect_adds_entry w true tag (KInsert c) ev); [discriminate|now repeat split]. Qed.
Lemma perm_swap {A} (a b x y : list A) : Permutation a b -> Permutation (a ++ x ++ y) (b ++ y ++ x).
Proof. intros H. apply Permutation_app; [exact H|apply Permutation_app_comm]. Qed.

Theorem deliver_one_ledger it w : WInv w -> GevKinds w -> item_tag_ok w it ->
  let '(sent, w', fl) := deliver_one beh it w in fl <> Some (FPanic 5) -> (forall s, fl <> Some (FUB s)) -> dledger w it w' fl.
Proof.
  intros HW HGK Hok. unfold item_tag_ok in Hok.
  assert (Hi : forall k info, item_reg w it = Some (k, info) -> item_tag w it = e_tag info /\ kind_tag_ok w (qi_targeted it) (e_tag info) (e_kind info)).
  { intros k info Hr. destruct (item_info_found w it k info) as [Ei Etag]; [unfold item_reg in Hr; destruct (qi_targeted it); exact Hr|]. now rewrite Ei in Hok. }
  assert (EE : forall k info ev, item_reg w it = Some (k, info) -> ev_ser ev = ev_ser (qi_ev it) ->
            ev_entry (qi_targeted it) (e_tag info) ev = ev_entry (qi_targeted it) (item_tag w it) (qi_ev it))
    by (intros k info ev Hr Hser; rewrite (proj1 (Hi k info Hr)); now apply ev_entry_ser).
  apply (deliver_one_rule beh _ _ _ (ledH_walks w)); [intros; apply ready_any; repeat intro; exact I|apply ledH_refl| | |].
  - intros s _ X. destruct (X s eq_refl).
  - intros k info w1 ev s fl Hr H _ Hser _ _ _ _. destruct (hledger_led _ _ _ _ (ledH_hledger _ _ _ _ H)) as (R & L1 & F).
    pose proof (led_trans _ _ _ _ _ _ _ L1 (led_ev_drop w1 (qi_targeted it) (e_tag info) ev)) as L2. rewrite (EE k info ev Hr Hser) in L2.
    apply (dledger_of_led _ _ _ _ _ (R ++ []) L2). intros X. now rewrite (F X).
  - intros k info loc w1 ev s Hr Hl H [Hs _] Hser _ Hk. apply structure_of_L in Hs. destruct (Hi k info Hr) as [_ Hkt].
    destruct (hledger_led _ _ _ _ (ledH_hledger _ _ _ _ H)) as (R & L1 & F). rewrite (F eq_refl) in L1.
    assert (HW1 : WInv w1) by (eapply WInv_structure; eauto).
    assert (Hloc : targeted_kind (e_kind info) = true -> sm_get (qi_target it) (w_ents w1) = Some loc).
    { rewrite (structure_ents _ _ Hs). unfold item_reg, item_loc in *. destruct (qi_targeted it); [auto|]. intros X. rewrite (HGK _ _ _ Hr) in X. discriminate. }
    pose proof (builtin_effect_ok (e_kind info) ev loc w1 (qi_target it) HW1 Hloc) as Hb.
    destruct (builtin_effect (e_kind info) ev loc w1) as [[] w3|f w3] eqn:Eff; cbn [res_world fail_of snd]; [intros _ _|destruct Hb as [-> _]; intros X; contradiction].
    destruct (builtin_effect_led _ _ _ _ _ _ HW1 Hloc Eff) as (nd & L3).
    rewrite (effect_adds_entry w1 (qi_targeted it) (e_tag info) _ ev Hk), (EE k info ev Hr Hser) in L3; [now apply (dledger_of_led _ _ _ _ _ [] (led_trans _ _ _ _ _ _ _ L1 L3))|].
    destruct (structure_cshape _ _ Hs) as (_ & Hc & _). exact (kind_tag_ok_le w1 w _ _ _ (fun c _ => comp_tag_same _ _ Hc c) Hkt).
Qed.

Definition entries (w : world) (q : list qitem) : list (N * N) :=
  flat_map (fun it => ev_entry (qi_targeted it) (item_tag w it) (qi_ev it)) q.
Lemma entries_reg w' w q : registries w' = registries w -> entries w' q = entries w q.
Proof. intros H. apply flat_map_ext. intros it. f_equal. now apply item_tag_reg. Qed.
Lemma entries_app w a b : entries w (a ++ b) = entries w a ++ entries w b. Proof. apply flat_map_app. Qed.
Lemma entries_rev w l : Permutation (entries w (rev l)) (entries w l).
Proof. apply Permutation_flat_map. symmetry. apply Permutation_rev. Qed.

Lemma registries_gev_tev w' w : registries w' = registries w -> w_gev w' = w_gev w /\ w_tev w' = w_tev w.
Proof. unfold registries. intros H. injection H as E1 _ E2 _ _. now split. Qed.

Definition TagInv (w : world) : Prop :=
  forall it info, item_info w it = Some info -> kind_tag_ok w (qi_targeted it) (e_tag info) (e_kind info).
Lemma TagInv_frame w' w : registries w' = registries w -> (forall c, comp_tag w' c = comp_tag w c) -> TagInv w -> TagInv w'.
Proof.
  intros Hr Hc HT it info Hi. assert (Hi' : item_info w it = Some info).
  { unfold item_info in *. destruct (registries_gev_tev _ _ Hr) as [E1 E2]. now rewrite <- E1, <- E2. }
  exact (kind_tag_ok_le w' w _ _ _ (fun c _ => Hc c) (HT it info Hi')).
Qed.
Lemma item_ok_tag w it : TagInv w -> item_ok w it -> item_tag_ok w it.
Proof.
  intros HT Hok. unfold item_tag_ok. destruct (item_info w it) as [info|] eqn:E; [exact (HT it info E)|].
  unfold item_info, item_ok, greg, treg in *. destruct (qi_targeted it); destruct (get_by_index _ _) as [[k i]|]; try discriminate; tauto.
Qed.

Lemma lv_unwind_queue q : forall w, lv (unwind_queue q w) = lv w.
Proof. intros w. apply (r_unwind_queue lv). fr. Qed.
Lemma led_unwind q w : led w (res_world (spawn_all (unwind_queue q w))) (entries w q) (entries w q).
Proof.
  destruct (spawn_all_ledger (unwind_queue q w)) as (D & _ & P). cbn zeta in D, P. split; [rewrite D; apply unwind_queue_spec|].
  rewrite P. apply Permutation_app_tail. apply Permutation_refl'.
  exact (stored_same w _ (r_unwind_queue w_archs (fun _ _ => eq_refl) q w) (r_unwind_queue w_comps (fun _ _ => eq_refl) q w)).
Qed.

Lemma combine_noabort (s' s1 s nd1 nd2 eit erest esent esent' eS2 x2 : list (N * N)) :
  Permutation (s1 ++ nd1) (s ++ eit) -> Permutation (s' ++ nd2) (s1 ++ (erest ++ esent') ++ eS2 ++ x2) -> Permutation esent' esent ->
  Permutation (s' ++ nd1 ++ nd2) (s ++ (erest ++ eit) ++ (esent ++ eS2) ++ x2).
Proof.
  intros H1 H2 H3. rewrite (Permutation_app_comm nd1), app_assoc, H2, H3, <- app_assoc, (Permutation_app_comm _ nd1), app_assoc, H1, <- !app_assoc.
  apply Permutation_app_head, Permutation_app_swap_app.
Qed.
Lemma combine_abort (s' s1 s nd1 eit erest esent x1 : list (N * N)) :
  Permutation (s1 ++ nd1) (s ++ eit ++ x1) -> Permutation s' s1 ->
  Permutation (s' ++ nd1 ++ erest ++ esent) (s ++ (erest ++ eit) ++ esent ++ x1).
Proof.
  intros H1 H2. rewrite H2, app_assoc, H1, <- !app_assoc. apply Permutation_app_head.
  now rewrite (Permutation_app_comm x1), <- app_assoc, Permutation_app_swap_app.
Qed.

Theorem flush_loop_ledger : forall n q w f0 acc tr w' fl oc,
  Loop.flush wst qitem (run_w beh) unwind_w n q (w, f0) acc = Some (tr, (w', fl), oc) ->
  ZI w -> TagInv w -> (forall x, In x q -> item_ok w x) -> (oc = Aborted -> fl <> Some (FPanic 5)) ->
  registries w' = registries w /\
  exists S nd X, w_drops w' = w_drops w ++ nd /\
    Permutation (stored w' ++ nd) (stored w ++ entries w q ++ entries w S ++ X) /\ (oc = Finished -> X = []).
Proof.
  induction n as [|n IH]; intros q w f0 acc tr w' fl oc H HZ HT HQ Hcap; [discriminate|].
  cbn [Loop.flush] in H. destruct (rev q) as [|it r] eqn:Er.
  - unfold step in H. rewrite Er in H. inversion H; subst. assert (q = []) by (destruct q as [|x q]; [reflexivity|]; cbn in Er; destruct (rev q); discriminate). subst q.
    split; [reflexivity|]. exists [], [], []. split; [now rewrite app_nil_r|]. split; [cbn; rewrite !app_nil_r; reflexivity|reflexivity].
  - assert (Hq : q = rev r ++ [it]) by (rewrite <- (rev_involutive q), Er; reflexivity).
    rewrite Hq, step_snoc in H. unfold run_w in H. cbn [fst] in H.
    assert (Qit : item_ok w it) by (apply HQ; rewrite Hq; apply in_or_app; right; now left).
    pose proof HZ as [[HD HS] (HB & HGl & HN & HRc)]. destruct (DI_parts _ HD) as ([[HW HGK] _] & _).
    pose proof (deliver_one_ZI beh it w HZ) as Z1. pose proof (deliver_one_no_ub beh it w HD HS) as Hn. pose proof (fun x => deliver_one_sent beh it w x HN) as Hsent.
    pose proof (deliver_one_keeps_registries beh it w) as Hr. pose proof (creg_deliver_one beh it w) as Hc.
    pose proof (deliver_one_ledger it w HW HGK (item_ok_tag w it HT Qit)) as HL.
    destruct (deliver_one beh it w) as [[sent w1] fl1]. cbn [fst snd] in *.
    assert (Hnub : forall s, fl1 <> Some (FUB s)).
    { intros s ->. apply Hn; [|exact I]. unfold item_ok, greg, treg in Qit. destruct (qi_targeted it); exact Qit. }
    assert (HT1 : TagInv w1) by (apply (TagInv_frame w1 w Hr); [apply comp_tag_creg; exact Hc|exact HT]).
    assert (HQ1 : forall x, In x (rev r) \/ In x sent -> item_ok w1 x).
    { intros x [Hin|Hin]; [apply (item_ok_reg w); [exact Hr|]; apply HQ; rewrite Hq; apply in_or_app; now left|apply (item_ok_reg w); [exact Hr|now apply Hsent]]. }
    rewrite Hq, entries_app. cbn [entries flat_map]. rewrite app_nil_r. fold (entries w (rev r)).
    destruct fl1 as [f1|].
    + (* the delivery panicked: the dropper destroys what is queued *)
      inversion H; subst tr oc. clear H. unfold unwind_w in H2. cbn [snd fst] in H2. destruct f1 as [k|s]; [|exfalso; exact (Hnub s eq_refl)].
      assert (Ew : w' = res_world (spawn_all (unwind_queue (rev r ++ sent) w1)) /\ fl = Some (FPanic k)) by (destruct (spawn_all _); inversion H2; auto).
      destruct Ew as [-> ->]. destruct (HL (Hcap eq_refl) Hnub) as (nd1 & X1 & D1 & P1 & _).
      split; [rewrite spawn_all_keeps_registries, unwind_queue_keeps_registries; exact Hr|].
      destruct (led_trans _ _ _ _ _ _ _ (conj D1 P1) (led_unwind (rev r ++ sent) w1)) as [D P]. rewrite (entries_reg w1 w _ Hr), entries_app in D, P.
      exists sent, (nd1 ++ entries w (rev r) ++ entries w sent), X1. split; [exact D|split; [|discriminate]].
      rewrite P, <- !app_assoc. apply Permutation_app_head. rewrite (Permutation_app_comm X1), <- !app_assoc, Permutation_app_swap_app. reflexivity.
    + destruct (IH _ _ _ _ _ _ _ _ H Z1 HT1) as (Hr2 & S2 & nd2 & X2 & D2 & P2 & F2); [intros x Hin; apply HQ1; apply in_app_or in Hin as [Hin|Hin]; [now left|right; now apply in_rev]|exact Hcap|].
      destruct (HL ltac:(discriminate) Hnub) as (nd1 & X1 & D1 & P1 & F1). rewrite (F1 eq_refl), app_nil_r in P1.
      split; [congruence|]. destruct (led_trans _ _ _ _ _ _ _ (conj D1 P1) (conj D2 P2)) as [D P].
      exists (sent ++ S2), (nd1 ++ nd2), X2. split; [exact D|]. split; [|exact F2].
      rewrite P, !(entries_reg w1 w _ Hr), !entries_app, <- !app_assoc. apply Permutation_app_head. rewrite Permutation_app_swap_app. do 2 apply Permutation_app_head.
      apply Permutation_app_tail. unfold entries. now rewrite <- Permutation_rev.
Qed.

Definition res_fail {A} (r : res A) : option fail := match r with ROk _ _ => None | RFail f _ => Some f end.

(* one top-level propagation: every value held before - stored, or carried by a queued event - and every value
   sent during the propagation is afterwards still stored or has been destroyed, exactly once (multiset
   equation); unless the propagation panicked, nothing else was destroyed *)
Theorem flush_ledger q w : ZI w -> TagInv w -> (forall x, In x q -> item_ok w x) ->
  let r := flush beh q w in res_fail r <> Some (FPanic 5) -> res_fail r <> Some (FPanic 8) ->
  registries (res_world r) = registries w /\
  exists S nd X, w_drops (res_world r) = w_drops w ++ nd /\
    Permutation (stored (res_world r) ++ nd) (stored w ++ entries w q ++ entries w S ++ X) /\ (res_fail r = None -> X = []).
Proof.
  intros HZ HT HQ. cbn zeta. apply flush_cases; cbn [res_world res_fail].
  - intros _ X. now contradiction X.
  - intros tr w1 fl E _ _. destruct (flush_loop_ledger _ _ _ _ _ _ _ _ _ E HZ HT HQ ltac:(discriminate)) as (Hr & S & nd & X & D & P & F).
    split; [exact Hr|]. exists S, nd, X. split; [exact D|]. split; [exact P|]. intros _. now apply F.
  - intros tr w1 f E Hc _. destruct (flush_loop_ledger _ _ _ _ _ _ _ _ _ E HZ HT HQ (fun _ => Hc)) as (Hr & S & nd & X & D & P & F).
    split; [exact Hr|]. exists S, nd, X. split; [exact D|]. split; [exact P|discriminate].
Qed.
End WithBeh.

Definition TI (w : world) : Prop :=
  (forall i k info, get_by_index (w_gev w) i = Some (k, info) -> e_kind info = gkind (e_tag info)) /\
  (forall i k info, get_by_index (w_tev w) i = Some (k, info) -> kind_tag_ok w true (e_tag info) (e_kind info)).

Lemma TI_TagInv w : TI w -> TagInv w.
Proof.
  intros [T1 T2] it info Hi. unfold item_info in Hi. destruct (qi_targeted it).
  - destruct (get_by_index (w_tev w) (qi_idx it)) as [[k i0]|] eqn:E; inversion Hi; subst. exact (T2 _ _ _ E).
  - destruct (get_by_index (w_gev w) (qi_idx it)) as [[k i0]|] eqn:E; inversion Hi; subst. rewrite (T1 _ _ _ E). unfold gkind.
    destruct (e_tag info =? G_SPAWN) eqn:Eg; [|exact I]. apply N.eqb_eq in Eg. rewrite Eg. intros ev. reflexivity.
Qed.

Lemma comp_tag_upd w c f cby' c' : (forall ci, c_tag (f ci) = c_tag ci) -> comp_tag (set_comps w (upd_by_index (w_comps w) c f) cby') c' = comp_tag w c'.
Proof.
  intros Hf. rewrite !comp_tag_gbi. cbn [w_comps set_comps]. rewrite gbi_upd. destruct (c' =? c); [|reflexivity].
  destruct (get_by_index (w_comps w) c') as [[k v]|]; [apply Hf|reflexivity].
Qed.
Lemma comp_tag_fold_upd (skip : N -> bool) (f : cinfo -> cinfo) cs : (forall ci, c_tag (f ci) = c_tag ci) ->
  forall m i, match get_by_index (fold_upd skip f cs m) i with Some (_, ci) => c_tag ci | None => 99 end = match get_by_index m i with Some (_, ci) => c_tag ci | None => 99 end.
Proof.
  intros Hf. induction cs as [|c cs IH]; intros m i; cbn [fold_upd fold_left]; [reflexivity|]. change (fold_left _ cs ?x) with (fold_upd skip f cs x). rewrite IH.
  destruct (skip c); [reflexivity|]. rewrite gbi_upd. destruct (i =? c); [|reflexivity]. destruct (get_by_index m i) as [[k v]|]; [apply Hf|reflexivity].
Qed.

Lemma TI_le w' w : w_gev w' = w_gev w -> w_tev w' = w_tev w -> tag_le w' w -> TI w -> TI w'.
Proof. intros E1 E2 Hc [T1 T2]. split; [rewrite E1; exact T1|]. rewrite E2. intros i k info Hg. eapply kind_tag_ok_le; eauto. Qed.
Lemma TI_keep w' w : w_gev w' = w_gev w -> w_tev w' = w_tev w -> (forall c, comp_tag w' c = comp_tag w c) -> TI w -> TI w'.
Proof. intros E1 E2 Hc. apply TI_le; [exact E1|exact E2|]. intros c _. apply Hc. Qed.
Lemma TI_frame w' w : w_gev w' = w_gev w -> w_tev w' = w_tev w -> (forall c, comp_tag w' c = comp_tag w c) -> TI w -> TI w'.
Proof. exact (TI_keep w' w). Qed.
Lemma TI_conv w' w : w_gev w' = w_gev w -> w_tev w' = w_tev w -> w_comps w' = w_comps w -> TI w -> TI w'.
Proof. intros A B C. apply TI_keep; [exact A|exact B|now apply comp_tag_same]. Qed.

Lemma comp_tag_rc_step cidx ctag w ai c : comp_tag (rc_step cidx ctag w ai) c = comp_tag w c.
Proof.
  apply comp_tag_creg, rc_step_cases; [reflexivity|]. intros a D _. unfold creg. cbn. do 2 f_equal. now apply creg_fold_upd.
Qed.
Lemma comp_tag_archs_remove_component cidx ctag w l c : comp_tag (archs_remove_component w cidx ctag l) c = comp_tag w c.
Proof. apply comp_tag_creg, creg_archs_remove_component. Qed.
Lemma tev_archs_remove_component cidx ctag w l : w_tev (archs_remove_component w cidx ctag l) = w_tev w /\ w_gev (archs_remove_component w cidx ctag l) = w_gev w.
Proof. destruct (registries_gev_tev _ _ (registries_archs_remove_component cidx ctag w l)). now split. Qed.

(* by K5 the component that the by-type map holds for a tag carries that tag *)
Lemma kind_tag_ok_from w tag kind : KInv w -> kind_from w tag kind -> tev_kind tag kind -> kind_tag_ok w true tag kind.
Proof.
  intros (_ & _ & _ & _ & _ & K5).
  assert (Ht : forall t k, alookup t (w_cby w) = Some k -> comp_tag w (fst k) = t) by (intros t k El; destruct (K5 t k El) as (ci & Hg & <-); now rewrite comp_tag_gbi, (gbi_of_get _ _ _ Hg)).
  destruct kind as [|c|c| |]; cbn [kind_from tev_kind kind_tag_ok]; try tauto.
  - intros (k & <- & El) [A B]. rewrite (Ht _ _ El). repeat split; lia.
  - intros _ [A B] ev. unfold ev_entry, ttag_has_drop.
    replace ((20 <=? tag) && (tag <? 40)) with false by (symmetry; apply andb_false_iff; right; apply N.ltb_ge; lia).
    replace (tag =? 0) with false by (symmetry; apply N.eqb_neq; lia). replace (tag =? 1) with false by (symmetry; apply N.eqb_neq; lia). reflexivity.
  - intros _ -> ev. reflexivity.
Qed.

(* the exit of a component: the targeted events that remain are about other components, which keep their tags *)
Lemma comp_exit_TI w k ci m : TI w -> sm_remove k (w_comps w) = Some (ci, m) -> FInv (comp_exit_world w k ci m) -> TI (comp_exit_world w k ci m).
Proof.
  intros [T1 T2] Er [_ (_ & _ & _ & _ & K3 & _)]. unfold comp_exit_world in *.
  set (w6 := set_comps w m (aremove (c_tag ci) (w_cby w))) in *. set (w7 := archs_remove_component w6 (fst k) (c_tag ci) (c_member_of ci)) in *.
  destruct (registries_gev_tev _ _ (registries_archs_remove_component (fst k) (c_tag ci) w6 (c_member_of ci))) as [Eg Et]. fold w7 in Eg, Et.
  assert (Hdead : get_by_index (w_comps w7) (fst k) = None) by (apply gbi_none_archs_remove_component; cbn [w_comps set_comps w6]; eapply gbi_remove_self; eauto).
  change (TI w7). split; [rewrite Eg; exact T1|]. rewrite Et. intros i k' info Hg.
  specialize (T2 i k' info Hg). unfold kind_tag_ok in *. destruct (e_kind info) as [|cx|cx| |] eqn:Ek; auto. destruct T2 as (A & B & C).
  assert (Hne : cx <> fst k).
  { intros ->. rewrite <- Et in Hg. destruct (K3 i k' info (fst k) Hg (or_introl Ek)) as (kc & cj & X & _). cbn [w_comps refresh_cursor set_res] in X. congruence. }
  assert (Hc : comp_tag w7 cx = comp_tag w cx).
  { unfold w7. rewrite (comp_tag_creg _ _ (creg_archs_remove_component _ _ _ _)), !comp_tag_gbi. cbn [w_comps set_comps w6]. now rewrite (gbi_remove_other _ _ _ _ cx Er Hne). }
  rewrite Hc. auto.
Qed.

Section TILayer.
Variable beh : hinfo -> logent -> N -> script.

Lemma TI_ev_drop w t tag ev : TI w -> TI (ev_drop w t tag ev).
Proof. intros H. refine (TI_keep _ w _ _ _ H); [apply (r_ev_drop w_gev)|apply (r_ev_drop w_tev)|apply comp_tag_same, (r_ev_drop w_comps)]; fr. Qed.
Lemma flush_TI q w : TI w -> TI (res_world (flush beh q w)).
Proof.
  intros H. destruct (registries_gev_tev _ _ (registries_flush beh q w)) as [E1 E2].
  exact (TI_keep _ w E1 E2 (comp_tag_creg _ _ (creg_flush beh q w)) H).
Qed.
Lemma gev_TI fuel : forall tag w, TI w ->
  TI (res_world (add_global_event beh fuel tag w)) /\ forall ev, TI (res_world (send_global beh fuel tag ev w)).
Proof.
  induction fuel as [|f IH]; intros tag w HT; [split; [exact HT|intros; exact HT]|].
  assert (Hadd : TI (res_world (add_global_event beh (S f) tag w))).
  { rewrite add_global_event_unfold. destruct (alookup tag (w_gby w)); [exact HT|].
    destruct (insert_with (fun _ => mkE tag (gkind tag)) (w_gev w)) as [[k m]|] eqn:Ei; [|exact HT].
    assert (HT2 : TI (gev_entry_world w tag k m)).
    { destruct HT as [T1 T2]. split; [|exact T2]. intros i k' info Hg.
      destruct (gbi_insert _ _ _ _ _ _ _ Ei Hg) as [->|Hold]; [reflexivity|eauto]. }
    destruct (IH G_ADDGE _ HT2) as [_ Hs]. specialize (Hs (mkEv 0 0 k)).
    destruct (send_global beh f G_ADDGE (mkEv 0 0 k) _); exact Hs. }
  split; [exact Hadd|]. intros ev. rewrite send_global_unfold. destruct (IH tag w HT) as [Ha _].
  destruct (add_global_event beh f tag w) as [k w1|e w1]; cbn [res_world] in *.
  - apply flush_TI. destruct (10 <? tag); exact Ha.
  - now apply TI_ev_drop.
Qed.
Lemma send_global_TI tag ev w : TI w -> TI (res_world (send_global beh RFUEL tag ev w)).
Proof. intros H. exact (proj2 (gev_TI RFUEL tag w H) ev). Qed.
Lemma add_global_event_TI tag w : TI w -> TI (res_world (add_global_event beh RFUEL tag w)).
Proof. intros H. exact (proj1 (gev_TI RFUEL tag w H)). Qed.
Lemma tev_entry_TI w0 tag kind k m : SmInv (w_tev w0) -> TI w0 -> kind_tag_ok w0 true tag kind ->
  insert_with (fun _ => mkE tag kind) (w_tev w0) = Some (k, m) -> TI (tev_entry_world w0 tag kind k m).
Proof.
  intros _ [T1 T2] Hk Ei. set (w1 := tev_entry_world w0 tag kind k m).
  assert (Eg : w_gev w1 = w_gev w0) by (unfold w1, tev_entry_world; destruct kind; reflexivity).
  assert (Et : w_tev w1 = m) by (unfold w1, tev_entry_world; destruct kind; reflexivity).
  assert (Hc : forall c, comp_tag w1 c = comp_tag w0 c).
  { intros c. unfold w1, tev_entry_world. destruct kind; try reflexivity; cbn zeta;
      match goal with |- comp_tag (set_comps ?wa (upd_by_index _ ?c0 ?f) _) _ = _ => exact (comp_tag_upd wa c0 f _ c (fun ci => eq_refl)) end. }
  split; [rewrite Eg; exact T1|]. rewrite Et. intros i k' info Hg. apply (kind_tag_ok_le w1 w0 _ _ _ (fun c _ => Hc c)).
  destruct (gbi_insert _ _ _ _ _ _ _ Ei Hg) as [->|Hold]; [exact Hk|eauto].
Qed.

Definition TI_over : Layer beh FInv.
Proof.
  apply (plain beh TI).
  2:{ intros q w _ HT _. destruct (registries_gev_tev _ _ (registries_flush beh q w)) as [E1 E2].
      exact (TI_keep _ w E1 E2 (comp_tag_creg _ _ (creg_flush beh q w)) HT). }
  intros b w w' Hp [_ HK] HT _.
  destruct Hp as [w w' Hq|w tag k m _ Ei|w tag k m _ Ei|w0 tag kind k m Hf Ht _ Ei|sh w c w1 k w3 _ _ Eh|w1 k h w2 Eh|k w w1 w2 info m _ _ _ _ Er|k w w1 w2 info m _ _ _ _ Er].
  - destruct (quiet_fields _ _ Hq) as (_ & _ & A & B & C). exact (TI_keep _ _ B C (comp_tag_same _ _ A) HT).
  - destruct HT as [T1 T2]. split; [|exact T2].
    intros i k' info Hg. destruct (gbi_insert _ _ _ _ _ _ _ Ei Hg) as [->|Hold]; [reflexivity|eauto].
  - revert HT. apply TI_le; try reflexivity.
    intros c Hc. rewrite !comp_tag_gbi in *. cbn [comp_entry_world w_comps set_comps].
    destruct (get_by_index (w_comps w) c) as [[kc ci]|] eqn:Hg; [|lia]. now rewrite (gbi_insert_old _ _ _ _ _ _ _ (proj1 HK) Ei Hg).
  - exact (tev_entry_TI w0 tag kind k m (proj1 (proj2 HK)) HT (kind_tag_ok_from w0 tag kind HK Hf Ht) Ei).
  - pose proof (handler_entry_kreg sh c w1 k w3 Eh) as K. unfold kreg in K. injection K as Kc _ Kt.
    revert HT. apply TI_keep; [exact (proj2 (handler_entry_structure sh c w1 k w3 Eh))|exact Kt|now apply comp_tag_same].
  - destruct (handlers_remove_inv w1 k h w2 Eh) as (hs & _ & ->). revert HT. apply TI_keep; reflexivity.
  - destruct HT as [T1 T2]. split; [|exact T2]. intros i k' info' Hg. eapply T1, gbi_remove; eauto.
  - destruct HT as [T1 T2].
    assert (HT3 : TI (set_tev w2 m (aremove (e_tag info) (w_tby w2)))) by (split; [exact T1|]; intros i k' info' Hg; eapply (T2 i), gbi_remove; eauto).
    unfold tev_exit_world. cbv zeta. destruct (e_kind info); try exact HT3;
      (eapply TI_keep; [| | |exact HT3]; [reflexivity|reflexivity|]; intros c0;
       match goal with |- comp_tag (set_comps ?wa (upd_by_index _ ?c1 ?f) _) _ = _ => exact (comp_tag_upd wa c1 f _ c0 (fun ci => eq_refl)) end).
Defined.

Lemma TI_comp_exit : comp_exit_ok TI_over.
Proof. intros k w w1 dk w2 w3 w4 ci w5 ci' m _ _ _ _ _ _ _ _ _ _ _ _ _ _ _ _ _ HT Er HF. exact (comp_exit_TI w5 k ci' m HT Er HF). Qed.

Definition FT (w : world) : Prop := FInv w /\ TI w.
Definition FT_layer : Layer beh (fun _ => True) := stack (FInv_layer beh) TI_over (fun w _ H => proj1 (FInv_layer_J beh w) H).
Lemma FT_layer_J w : lJ FT_layer w <-> FT w.
Proof. change (lJ (FInv_layer beh) w /\ TI w <-> FInv w /\ TI w). now rewrite FInv_layer_J. Qed.
Lemma FT_comp_exit : comp_exit_ok FT_layer.
Proof. apply stack_comp_exit; [apply FInv_comp_exit|exact TI_comp_exit]. Qed.
Lemma tri_FT {A} w (r : res A) Q : tri beh FT_layer w r Q -> FT (res_world r).
Proof. intros H. exact (proj1 (FT_layer_J _) (proj1 (tri_J beh FT_layer r w Q H))). Qed.
Lemma keeps_FT {A} (r : res A) : keeps beh FT_layer r -> FT (res_world r).
Proof. intros H. exact (proj1 (FT_layer_J _) (proj1 H)). Qed.
Lemma rbind_FT {A B} (r : res A) (f : A -> world -> res B) :
  FT (res_world r) -> (forall a w, FT w -> FT (res_world (f a w))) -> FT (res_world (rbind r f)).
Proof. apply rbind_K. Qed.

Lemma send_global_FT tag ev w : FT w -> FT (res_world (send_global beh RFUEL tag ev w)).
Proof. intros H. exact (tri_FT _ _ _ (send_global_tri beh FT_layer tag ev w (proj2 (FT_layer_J w) H))). Qed.
Lemma add_global_event_FT tag w : FT w -> FT (res_world (add_global_event beh RFUEL tag w)).
Proof. intros H. exact (tri_FT _ _ _ (add_global_event_tri beh FT_layer tag w (proj2 (FT_layer_J w) H))). Qed.
Lemma flush_FT q w : FT w -> FT (res_world (flush beh q w)).
Proof. intros [HF HT]. exact (conj (flush_FInv beh q w HF) (flush_TI q w HT)). Qed.
Lemma add_targeted_event_FT tag w : FT w -> FT (res_world (add_targeted_event beh tag w)).
Proof. intros H. exact (tri_FT _ _ _ (add_targeted_event_tri beh FT_layer tag w (proj2 (FT_layer_J w) H))). Qed.
Lemma send_to_FT tag target ev w : FT w -> FT (res_world (send_to beh tag target ev w)).
Proof. intros H. exact (tri_FT _ _ _ (send_to_tri beh FT_layer tag target ev w (proj2 (FT_layer_J w) H))). Qed.
Lemma op_FT_spawn w : FT w -> FT (res_world (op_spawn beh w)).
Proof. intros H. exact (tri_FT _ _ _ (op_spawn_tri beh FT_layer w (proj2 (FT_layer_J w) H))). Qed.
Lemma op_FT_insert e ktag w : FT w -> FT (res_world (op_insert beh e ktag w)).
Proof. intros H. exact (tri_FT _ _ _ (op_insert_tri beh FT_layer e ktag w (proj2 (FT_layer_J w) H))). Qed.
Lemma op_FT_send gtag w : FT w -> FT (res_world (op_send beh gtag w)).
Proof. intros H. exact (tri_FT _ _ _ (op_send_tri beh FT_layer gtag w (proj2 (FT_layer_J w) H))). Qed.
Lemma op_FT_send_to e ttag w : FT w -> FT (res_world (op_send_to beh e ttag w)).
Proof. intros H. exact (tri_FT _ _ _ (op_send_to_tri beh FT_layer e ttag w (proj2 (FT_layer_J w) H))). Qed.
Lemma resolve_query_FT q : forall w, FT w -> FT (res_world (resolve_query beh q w)).
Proof. intros w H. exact (tri_FT _ _ _ (resolve_query_tri beh FT_layer q w (proj2 (FT_layer_J w) H))). Qed.
Lemma register_set_FT evs : forall w, FT w -> FT (res_world (register_set beh evs w)).
Proof. intros w H. exact (tri_FT _ _ _ (register_set_tri beh FT_layer evs w (proj2 (FT_layer_J w) H))). Qed.
Lemma init_param_FT p c w : FT w -> FT (res_world (init_param beh p c w)).
Proof. intros H. exact (tri_FT _ _ _ (init_param_tri beh FT_layer p c w (proj2 (FT_layer_J w) H))). Qed.
Lemma init_params_FT ps : forall c w, FT w -> FT (res_world (init_params beh ps c w)).
Proof. intros c w H. exact (tri_FT _ _ _ (init_params_tri beh FT_layer ps c w (proj2 (FT_layer_J w) H))). Qed.
Theorem add_handler_FT sh w : FT w -> FT (res_world (add_handler beh sh w)).
Proof. intros H. exact (tri_FT _ _ _ (add_handler_tri beh FT_layer sh w (proj2 (FT_layer_J w) H))). Qed.
Theorem remove_handler_FT k w : FT w -> FT (res_world (remove_handler beh k w)).
Proof. intros H. exact (keeps_FT _ (remove_handler_keeps beh FT_layer k w (proj2 (FT_layer_J w) H))). Qed.
Lemma remove_handlers_FT ks : forall w, FT w -> FT (res_world (remove_handlers beh ks w)).
Proof. intros w H. exact (keeps_FT _ (remove_handlers_keeps beh FT_layer ks w (proj2 (FT_layer_J w) H))). Qed.
Theorem remove_global_event_FT k w : FT w -> FT (res_world (remove_global_event beh k w)).
Proof. intros H. exact (keeps_FT _ (remove_global_event_keeps beh FT_layer k w (proj2 (FT_layer_J w) H))). Qed.
Theorem remove_targeted_event_FT k w : FT w -> FT (res_world (remove_targeted_event beh k w)).
Proof. intros H. exact (keeps_FT _ (remove_targeted_event_keeps beh FT_layer k w (proj2 (FT_layer_J w) H))). Qed.
Lemma remove_tevents_FT ks : forall w, FT w -> FT (res_world (remove_tevents beh ks w)).
Proof. intros w H. exact (keeps_FT _ (remove_tevents_keeps beh FT_layer ks w (proj2 (FT_layer_J w) H))). Qed.
Theorem remove_component_FT k w : FT w -> FT (res_world (remove_component beh k w)).
Proof. intros H. exact (keeps_FT _ (remove_component_keeps beh FT_layer k w FT_comp_exit (proj2 (FT_layer_J w) H))). Qed.
Lemma run_top_all_FT w o : FT w -> FT (run_top_all beh w o).
Proof. intros H. exact (proj1 (FT_layer_J _) (run_top_all_keeps beh FT_layer FT_comp_exit w o (proj2 (FT_layer_J w) H))). Qed.

Lemma FT_world0 fuel p : FT (world0 fuel p).
Proof.
  split; [apply FInv_world0|].
  assert (G : forall i, get_by_index (w_gev (world0 fuel p)) i = None) by (intros i; unfold world0, get_by_index; cbn [w_gev slots sm_empty sget]; now destruct i).
  assert (T : forall i, get_by_index (w_tev (world0 fuel p)) i = None) by (intros i; unfold world0, get_by_index; cbn [w_tev slots sm_empty sget]; now destruct i).
  split; intros i k info H; [rewrite G in H|rewrite T in H]; discriminate.
Qed.
Theorem reachable_TagInv fuel p ops : TagInv (fold_left (run_top_all beh) ops (world0 fuel p)).
Proof.
  exact (TI_TagInv _ (proj2 (proj1 (FT_layer_J _) (history_keeps beh FT_layer ops _ FT_comp_exit (proj2 (FT_layer_J _) (FT_world0 fuel p)))))).
Qed.

(* C11 / C12 / C13 for a top-level propagation on any reachable world: conservation of values *)
Theorem reachable_flush_ledger fuel p ops q : let w := fold_left (run_top_all beh) ops (world0 fuel p) in
  (forall x, In x q -> item_ok w x) ->
  let r := flush beh q w in res_fail r <> Some (FPanic 5) -> res_fail r <> Some (FPanic 8) ->
  exists S nd X, w_drops (res_world r) = w_drops w ++ nd /\
    Permutation (stored (res_world r) ++ nd) (stored w ++ entries w q ++ entries w S ++ X) /\ (res_fail r = None -> X = []).
Proof.
  cbn zeta. intros HQ Hc Hf. exact (proj2 (flush_ledger beh q _ (reachable_ZI beh fuel p ops) (reachable_TagInv fuel p ops) HQ Hc Hf)).
Qed.
End TILayer.
