(* SlotMapGet.v : what `get` returns after insert / remove / in-place update, under SmInv. *)
From Coq Require Import List NArith Bool Lia.
Import ListNotations.
Require Import EV.Base EV.SlotMap EV.World EV.ArchProofs.
Open Scope N_scope.

Section G.
Context {V : Type}.
Implicit Types (m : smap V) (k : key).

Lemma sm_get_some_inv k m v : sm_get k m = Some v ->
  exists s, sget (slots m) (fst k) = Some s /\ gen s = snd k /\ val s = Some v.
Proof.
  unfold sm_get. destruct (sget (slots m) (fst k)) as [s|]; [|discriminate].
  destruct (gen s =? snd k) eqn:E; [|discriminate]. apply N.eqb_eq in E. eauto.
Qed.

Lemma insert_get_new f m k m' : SmInv m -> insert_with f m = Some (k, m') -> sm_get k m' = Some (f k).
Proof. intros Hi H. exact (proj2 (proj2 (sm_fresh f m [] k m' Hi (fun _ Hin => match Hin with end) H))). Qed.

Lemma insert_index_vacant f m k m' k' : SmInv m -> insert_with f m = Some (k, m') -> fst k' = fst k -> sm_get k' m = None.
Proof.
  intros Hi H E. unfold sm_get. rewrite E.
  destruct (insert_with_spec _ _ _ _ Hi H) as (lk & _ & _ & [(s & Hs & Hv & _)|(Hl & _)]).
  - rewrite Hs, Hv. now destruct (gen s =? snd k').
  - now rewrite sget_ge by lia.
Qed.
Lemma insert_get_fresh f m k m' : SmInv m -> insert_with f m = Some (k, m') -> sm_get k m = None.
Proof. intros Hi H. exact (insert_index_vacant f m k m' k Hi H eq_refl). Qed.

Lemma insert_sget_other f m k m' i : SmInv m -> insert_with f m = Some (k, m') -> i <> fst k -> sget (slots m') i = sget (slots m) i.
Proof.
  intros Hi H Hne. destruct (insert_with_spec _ _ _ _ Hi H) as (lk & _ & _ & [(s & _ & _ & _ & _ & ->)|(Hl & _ & ->)]).
  - apply sget_supd_neq. congruence.
  - apply sget_app_neq. congruence.
Qed.
Lemma insert_get_other f m k m' k' : SmInv m -> insert_with f m = Some (k, m') -> k' <> k -> sm_get k' m' = sm_get k' m.
Proof.
  intros Hi H Hne. destruct (N.eq_dec (fst k') (fst k)) as [E|E].
  - rewrite (insert_index_vacant f m k m' k' Hi H E). destruct (insert_with_spec _ _ _ _ Hi H) as (lk & _ & Hnew & _).
    unfold sm_get. rewrite E, Hnew. cbn [gen val].
    destruct (N.eqb_spec (snd k) (snd k')) as [G|]; [|reflexivity]. elim Hne. apply injective_projections; congruence.
  - unfold sm_get. now rewrite (insert_sget_other f m k m' _ Hi H E).
Qed.

Lemma remove_get_self k m v m' : sm_remove k m = Some (v, m') -> sm_get k m = Some v.
Proof.
  intros H. destruct (sm_remove_spec _ _ _ _ H) as (s & _ & Hs & Hg & Hv & _). unfold sm_get. now rewrite Hs, Hg, N.eqb_refl.
Qed.

Lemma remove_get_other k m v m' k' : SmInv m -> sm_remove k m = Some (v, m') -> k' <> k -> sm_get k' m' = sm_get k' m.
Proof.
  intros _ H Hne. destruct (sm_remove_spec _ _ _ _ H) as (s & s' & Hs & Hg & _ & _ & Hv' & Hsl & _). unfold sm_get. rewrite Hsl.
  destruct (N.eq_dec (fst k) (fst k')) as [E|E]; [|now rewrite sget_supd_neq by exact E].
  rewrite <- E. erewrite sget_supd_eq by eauto. rewrite Hs, Hv'.
  destruct (N.eqb_spec (gen s) (snd k')) as [G|]; [|now destruct (gen s' =? snd k')]. elim Hne. apply injective_projections; congruence.
Qed.

Lemma remove_get_gone k m v m' : SmInv m -> sm_remove k m = Some (v, m') -> sm_get k m' = None.
Proof.
  intros _ H. destruct (sm_remove_spec _ _ _ _ H) as (s & s' & Hs & _ & _ & _ & Hv' & Hsl & _). unfold sm_get. rewrite Hsl.
  erewrite sget_supd_eq by eauto. rewrite Hv'. now destruct (gen s' =? snd k).
Qed.

(* in-place update of the value of a live key *)
Lemma upd_get_eq m k (f : V -> V) v : sm_get k m = Some v -> sm_get k (upd_by_index m (fst k) f) = Some (f v).
Proof.
  intros H. destruct (sm_get_some_inv _ _ _ H) as (s & Hs & Hg & Hv). unfold upd_by_index. rewrite Hs, Hv.
  unfold sm_get. cbn [slots]. erewrite sget_supd_eq by eauto. cbn [gen val]. now rewrite Hg, N.eqb_refl.
Qed.
Lemma upd_get_neq m i (f : V -> V) k : fst k <> i -> sm_get k (upd_by_index m i f) = sm_get k m.
Proof.
  intros Hne. unfold upd_by_index. destruct (sget (slots m) i) as [s|]; [|reflexivity]. destruct (val s); [|reflexivity].
  unfold sm_get. cbn [slots]. now rewrite sget_supd_neq by auto.
Qed.
Lemma upd_get_same_index m k (f : V -> V) k' v : sm_get k m = Some v -> fst k' = fst k -> k' <> k -> sm_get k' (upd_by_index m (fst k) f) = None.
Proof.
  intros H Hi Hne. destruct (sm_get_some_inv _ _ _ H) as (s & Hs & Hg & Hv). unfold upd_by_index. rewrite Hs, Hv.
  unfold sm_get. cbn [slots]. rewrite Hi. erewrite sget_supd_eq by eauto. cbn [gen val].
  destruct (N.eqb_spec (gen s) (snd k')) as [G|]; [|reflexivity]. elim Hne. apply injective_projections; congruence.
Qed.
Lemma upd_inv m k (f : V -> V) v : SmInv m -> sm_get k m = Some v -> SmInv (upd_by_index m (fst k) f).
Proof.
  intros Hi H. pose proof Hi as ((c & Hc & Hnd) & Hok & Hb). destruct (sm_get_some_inv _ _ _ H) as (s & Hs & Hg & Hv).
  unfold upd_by_index. rewrite Hs, Hv. unfold SmInv. cbn [slots next_free sm_len]. rewrite supd_length. split; [|split; [|exact Hb]].
  - exists c. split; [|exact Hnd]. apply chain_supd_notin; [exact Hc|]. intros Hin.
    rewrite (chain_vacant _ _ _ _ _ Hi Hc Hin Hs) in Hv. discriminate.
  - intros j s' Hj. apply sget_supd_inv in Hj as [->|Hj]; [|eauto]. destruct (Hok _ _ Hs) as [Hlt Hodd]. split; cbn; [exact Hlt|].
    split; [intros _; discriminate|intros _; apply Hodd; congruence].
Qed.

Lemma gbi_of_get m k v : sm_get k m = Some v -> get_by_index m (fst k) = Some (k, v).
Proof.
  intros H. destruct (sm_get_some_inv _ _ _ H) as (s & Hs & Hg & Hv). unfold get_by_index. rewrite Hs, Hv, Hg. now destruct k.
Qed.
Lemma get_of_gbi m i k v : get_by_index m i = Some (k, v) -> fst k = i /\ sm_get k m = Some v.
Proof.
  unfold get_by_index, sm_get. destruct (sget (slots m) i) as [s|] eqn:Es; [|discriminate]. destruct (val s) as [v0|] eqn:Ev; [|discriminate].
  intros H. inversion H; subst. cbn [fst snd]. rewrite Es, N.eqb_refl, Ev. auto.
Qed.
Lemma gbi_upd m c (f : V -> V) i :
  get_by_index (upd_by_index m c f) i = if i =? c then match get_by_index m i with Some (k, v) => Some (k, f v) | None => None end else get_by_index m i.
Proof.
  unfold upd_by_index, get_by_index. destruct (i =? c) eqn:E.
  - apply N.eqb_eq in E. subst i. destruct (sget (slots m) c) as [s|] eqn:Es; [|now rewrite Es].
    destruct (val s) as [v|] eqn:Ev; [|now rewrite Es, Ev]. cbn [slots]. erewrite sget_supd_eq by eauto. reflexivity.
  - apply N.eqb_neq in E. destruct (sget (slots m) c) as [s|] eqn:Es; [|reflexivity]. destruct (val s); [|reflexivity].
    cbn [slots]. now rewrite sget_supd_neq by auto.
Qed.
Lemma upd_index_inv m c (f : V -> V) : SmInv m -> SmInv (upd_by_index m c f).
Proof.
  intros Hi. destruct (get_by_index m c) as [[k v]|] eqn:E.
  - destruct (get_of_gbi _ _ _ _ E) as [<- Hg]. eapply upd_inv; eauto.
  - unfold upd_by_index. unfold get_by_index in E. destruct (sget (slots m) c) as [s|]; [|exact Hi]. destruct (val s); [discriminate|exact Hi].
Qed.
Lemma gbi_insert_fresh f m k m' : SmInv m -> insert_with f m = Some (k, m') -> get_by_index m (fst k) = None.
Proof.
  intros Hi H. destruct (get_by_index m (fst k)) as [[k0 v]|] eqn:E; [|reflexivity]. destruct (get_of_gbi _ _ _ _ E) as [Hf Hg].
  rewrite (insert_index_vacant f m k m' k0 Hi H Hf) in Hg. discriminate.
Qed.
Lemma gbi_insert_new f m k m' : SmInv m -> insert_with f m = Some (k, m') -> get_by_index m' (fst k) = Some (k, f k).
Proof. intros Hi H. apply gbi_of_get. eapply insert_get_new; eauto. Qed.
Lemma gbi_insert_old f m k m' i k0 v : SmInv m -> insert_with f m = Some (k, m') -> get_by_index m i = Some (k0, v) -> get_by_index m' i = Some (k0, v).
Proof.
  intros Hi H Hg. destruct (get_of_gbi _ _ _ _ Hg) as [<- Hs]. apply gbi_of_get.
  rewrite (insert_get_other f m k m' k0 Hi H); [exact Hs|]. intros ->. rewrite (insert_get_fresh f m k m' Hi H) in Hs. discriminate.
Qed.
Lemma gbi_insert_other f m k m' i : SmInv m -> insert_with f m = Some (k, m') -> i <> fst k -> get_by_index m' i = get_by_index m i.
Proof.
  intros Hi H Hne. unfold get_by_index. now rewrite (insert_sget_other f m k m' i Hi H Hne).
Qed.
Lemma gbi_remove_other k m v m' i : sm_remove k m = Some (v, m') -> i <> fst k -> get_by_index m' i = get_by_index m i.
Proof.
  intros H Hne. destruct (sm_remove_spec _ _ _ _ H) as (s & s' & _ & _ & _ & _ & _ & Hsl & _). unfold get_by_index.
  now rewrite Hsl, sget_supd_neq by congruence.
Qed.
Lemma gbi_remove_self k m v m' : sm_remove k m = Some (v, m') -> get_by_index m' (fst k) = None.
Proof.
  intros H. destruct (sm_remove_spec _ _ _ _ H) as (s & s' & Hs & _ & _ & _ & Hv' & Hsl & _). unfold get_by_index.
  rewrite Hsl. erewrite sget_supd_eq by eauto. now rewrite Hv'.
Qed.
End G.

Lemma supd_map {V B} (g : slot V -> B) (l : list (slot V)) i x y : sget l i = Some y -> g x = g y -> map g (supd l i x) = map g l.
Proof.
  rewrite supd_upd, sget_nth. generalize (N.to_nat i). clear i. intros n. revert n. induction l as [|h t IH]; intros [|n] H E; cbn in *; try discriminate.
  - inversion H; subst. now rewrite E.
  - f_equal. now apply IH.
Qed.

(* A slot map seen through [f]: its generations and links as they are, its values through [f].  Two maps with the same
   view hold, under every key, values that [f] does not tell apart. *)
Section SlotsView.
Context {V W : Type} (f : V -> W).
Definition slot_view (s : slot V) : N * N * option W := (gen s, link s, option_map f (val s)).
Definition slots_view (m : smap V) : list (N * N * option W) := map slot_view (slots m).

Lemma slots_view_sget m m' i : slots_view m' = slots_view m -> option_map slot_view (sget (slots m') i) = option_map slot_view (sget (slots m) i).
Proof. unfold slots_view. intros H. now rewrite !sget_nth, <- !nth_error_map, H. Qed.
Lemma slots_view_get m m' k : slots_view m' = slots_view m -> option_map f (sm_get k m') = option_map f (sm_get k m).
Proof.
  intros H. pose proof (slots_view_sget m m' (fst k) H) as E. unfold sm_get.
  destruct (sget (slots m') (fst k)) as [s'|], (sget (slots m) (fst k)) as [s|]; cbn in E; try discriminate; [|reflexivity].
  injection E as -> _ Ev. now destruct (gen s =? snd k).
Qed.
Lemma slots_view_gbi m m' i : slots_view m' = slots_view m ->
  option_map (fun p : key * V => (fst p, f (snd p))) (get_by_index m' i) = option_map (fun p : key * V => (fst p, f (snd p))) (get_by_index m i).
Proof.
  intros H. pose proof (slots_view_sget m m' i H) as E. unfold get_by_index.
  destruct (sget (slots m') i) as [s'|], (sget (slots m) i) as [s|]; cbn in E; try discriminate; [|reflexivity].
  injection E as -> _ Ev. destruct (val s'), (val s); cbn in *; congruence.
Qed.
Lemma slots_view_gens m m' : slots_view m' = slots_view m -> map (@gen V) (slots m') = map (@gen V) (slots m).
Proof.
  unfold slots_view. intros H. apply (f_equal (map (fun x : N * N * option W => fst (fst x)))) in H. now rewrite !map_map in H.
Qed.
Lemma slots_view_upd m i (u : V -> V) : (forall v, f (u v) = f v) -> slots_view (upd_by_index m i u) = slots_view m.
Proof.
  intros Hu. unfold slots_view, upd_by_index. destruct (sget (slots m) i) as [s|] eqn:Es; [|reflexivity]. destruct (val s) as [v|] eqn:Ev; [|reflexivity].
  cbn [slots]. eapply supd_map; [exact Es|]. unfold slot_view. cbn [gen link val option_map]. now rewrite Ev, Hu.
Qed.
End SlotsView.

Section ByOK.
Context {V : Type} (tagf : V -> N).
Definition ByOK (m : smap V) (by_ : list (N * key)) : Prop :=
  forall tag k, alookup tag by_ = Some k -> exists v, sm_get k m = Some v /\ tagf v = tag.
Lemma byok_insert f m k m' tag by_ : SmInv m -> insert_with f m = Some (k, m') -> tagf (f k) = tag ->
  ByOK m by_ -> ByOK m' (ainsert tag k by_).
Proof.
  intros S Ei Ht H t k0 Hl. destruct (N.eq_dec t tag) as [->|Hne].
  - rewrite alookup_ainsert_eq in Hl. inversion Hl; subst k0. exists (f k). split; [exact (insert_get_new f m k m' S Ei)|exact Ht].
  - rewrite alookup_ainsert_neq in Hl by exact Hne. destruct (H t k0 Hl) as (v & A & B). exists v. split; [|exact B].
    rewrite (insert_get_other _ _ _ _ k0 S Ei); [exact A|]. intros ->. rewrite (insert_get_fresh _ _ _ _ S Ei) in A. discriminate.
Qed.
Lemma byok_remove m k v m' by_ : SmInv m -> sm_remove k m = Some (v, m') -> ByOK m by_ -> ByOK m' (aremove (tagf v) by_).
Proof.
  intros S Er H t k0 Hl. destruct (N.eq_dec t (tagf v)) as [->|Hne]; [rewrite alookup_aremove_eq in Hl; discriminate|].
  rewrite alookup_aremove_neq in Hl by exact Hne. destruct (H t k0 Hl) as (v0 & A & B). exists v0. split; [|exact B].
  rewrite (remove_get_other k m v m' k0 S Er); [exact A|]. intros ->. rewrite (remove_get_self _ _ _ _ Er) in A. inversion A; subst. congruence.
Qed.
End ByOK.
