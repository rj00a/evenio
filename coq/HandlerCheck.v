(* HandlerCheck.v : the handler-level access check of World::try_add_handler (after the fix:
   conjunction of all parameters, every parameter alone, every pair) accepts a parameter list
   exactly when no archetype makes the parameters, taken together, hand out a mutable reference
   to a component alongside another reference to it. *)
From Coq Require Import List NArith Bool Lia.
Import ListNotations.
Require Import EV.Base EV.Access EV.AccessProofs EV.Query EV.QueryProofs EV.Aliasing EV.World.
Open Scope N_scope.

Lemma hrefs_all_match a qs : forallb (qmatch a) qs = true -> hrefs a qs = flat_map (srefs a) qs.
Proof.
  unfold hrefs. induction qs as [|q qs IH]; cbn [forallb flat_map]; intros H; [reflexivity|].
  apply andb_true_iff in H as [H1 H2]. now rewrite H1, IH.
Qed.

Lemma lvl_conf_mono a b : lvl_le a b = true -> a = LConf -> b = LConf.
Proof. intros H ->. now apply lvl_le_conf. Qed.

(* the checks of every parameter alone and of every pair find a conflict exactly when, on some archetype, the matching
   parameters together conflict on some component: a conflict of a join of levels is a conflict of one or of two of them *)
Lemma pair_conflicts_exact qs :
  pair_conflicts (map access_of qs) <> [] <-> exists a c, refs_lvl (hrefs a qs) c = LConf.
Proof.
  induction qs as [|q t IH]; cbn [map pair_conflicts]; [split; [tauto|intros (_ & _ & [=])]|].
  rewrite !app_nonnil, flat_nonnil, IH. split.
  - intros [H|[(b & Hb & H)|(a & c & H)]].
    + apply conflict_iff_aliasing in H as (a & Hm & c & Hl). exists a, c. rewrite hrefs_cons, Hm. now apply lvl_conf_join_l.
    + apply in_map_iff in Hb as (q2 & <- & Hq2). rewrite <- access_pair in H. apply conflict_iff_aliasing in H as (a & Hm & c & Hl).
      cbn [qmatch forallb] in Hm. apply andb_true_iff in Hm as [M1 Hm]. apply andb_true_iff in Hm as [M2 _].
      rewrite srefs_pair, refs_lvl_app in Hl. exists a, c. rewrite hrefs_cons, M1. apply lvl_le_conf. rewrite <- Hl.
      apply lvl_join_mono; [apply lvl_le_refl|now apply hrefs_in].
    + exists a, c. rewrite hrefs_cons. now apply lvl_conf_join_r.
  - intros (a & c & H). rewrite hrefs_cons in H. destruct (qmatch a q) eqn:Mq; [|right; right; exists a, c; exact H].
    destruct (hrefs_lvl_cases a c t) as [E|[E|(q2 & Hq2 & M2 & E)]].
    + left. apply conflict_iff_aliasing. exists a. split; [exact Mq|]. exists c. now rewrite E, lvl_join_none_r in H.
    + right. right. eauto.
    + right. left. exists (access_of q2). split; [now apply in_map|]. rewrite <- access_pair. apply conflict_iff_aliasing. exists a.
      split; [cbn; now rewrite Mq, M2|]. exists c. now rewrite srefs_pair, refs_lvl_app, E.
Qed.

(* the parameters of a handler: queries of its fetchers / Single / TrySingle / targeted receivers *)
Theorem handler_check_exact (qs : list query) :
  handler_conflicts (map access_of qs) = [] <-> forall a, ~ aliasing (hrefs a qs).
Proof.
  unfold handler_conflicts. split.
  - intros Hnil a (c & Hc). apply app_eq_nil in Hnil as [_ Hnil]. apply (proj2 (pair_conflicts_exact qs)); eauto.
  - intros Hno. destruct (_ ++ _) eqn:E; [reflexivity|exfalso].
    assert (Hne : ca_conflicts (fold_left ca_and (map access_of qs) ca_true) ++ pair_conflicts (map access_of qs) <> [])
      by (rewrite E; discriminate). clear E.
    apply app_nonnil in Hne as [Hc|Hp].
    + rewrite <- access_tuple in Hc. apply conflict_iff_aliasing in Hc as (a & Hm & c & Hl). apply (Hno a). exists c.
      now rewrite (hrefs_all_match a qs Hm).
    + apply pair_conflicts_exact in Hp as (a & c & H). apply (Hno a). now exists c.
Qed.
