(* ListN.v : lemmas about the N-indexed list operations of Base.v (Vec::push, swap_remove,
   indexing, in-place update) used by the storage invariants. *)
From Coq Require Import List NArith Bool Lia.
Import ListNotations.
Require Import EV.Base.
Open Scope N_scope.

Section L.
Context {A : Type}.
Implicit Types (l : list A) (i j : N) (x y : A) (p : A -> bool).

Lemma nlen_nil : nlen (@nil A) = 0. Proof. reflexivity. Qed.
Lemma nlen_cons x l : nlen (x :: l) = nlen l + 1. Proof. unfold nlen. cbn [length]. lia. Qed.
Lemma nlen_app l1 l2 : nlen (l1 ++ l2) = nlen l1 + nlen l2. Proof. unfold nlen. rewrite app_length. lia. Qed.

Lemma nget_nil i : nget (@nil A) i = None. Proof. reflexivity. Qed.
Lemma nget_cons_0 x l : nget (x :: l) 0 = Some x. Proof. reflexivity. Qed.
Lemma nget_cons_S x l i : i <> 0 -> nget (x :: l) i = nget l (N.pred i).
Proof. intros H. cbn [nget]. now destruct (N.eqb_spec i 0). Qed.
Lemma nget_cons_succ x l i : nget (x :: l) (i + 1) = nget l i.
Proof. rewrite nget_cons_S by lia. f_equal. lia. Qed.

(* indexing is [nth_error]: what List proves of it is inherited *)
Lemma nget_nth l : forall i, nget l i = nth_error l (N.to_nat i).
Proof.
  induction l as [|h t IH]; intros i; cbn [nget]; [now destruct (N.to_nat i)|].
  destruct (N.eqb_spec i 0) as [->|Hn]; [reflexivity|]. rewrite IH. now replace (N.to_nat i) with (S (N.to_nat (N.pred i))) by lia.
Qed.
Lemma nget_some_lt l i x : nget l i = Some x -> i < nlen l.
Proof. rewrite nget_nth. intros H. assert (L : (N.to_nat i < length l)%nat) by (apply nth_error_Some; congruence). unfold nlen. lia. Qed.
Lemma nget_lt_some l i : i < nlen l -> exists x, nget l i = Some x.
Proof. intros H. destruct (nget l i) eqn:E; [eauto|]. rewrite nget_nth in E. apply nth_error_None in E. unfold nlen in H. lia. Qed.
Lemma nget_none_ge l i : nget l i = None -> nlen l <= i.
Proof. intros H. destruct (N.lt_ge_cases i (nlen l)) as [L|G]; [|exact G]. destruct (nget_lt_some l i L) as [x Hx]. congruence. Qed.
Lemma nget_ge_none l : forall i, nlen l <= i -> nget l i = None.
Proof. intros i H. destruct (nget l i) eqn:E; [|reflexivity]. apply nget_some_lt in E. lia. Qed.

Lemma nget_app_l l1 l2 i : i < nlen l1 -> nget (l1 ++ l2) i = nget l1 i.
Proof. intros H. rewrite !nget_nth. apply nth_error_app1. unfold nlen in H. lia. Qed.
Lemma nget_app_r l1 l2 i : nlen l1 <= i -> nget (l1 ++ l2) i = nget l2 (i - nlen l1).
Proof. unfold nlen. intros H. rewrite !nget_nth, nth_error_app2 by lia. f_equal. lia. Qed.
Lemma nget_snoc_last l x : nget (l ++ [x]) (nlen l) = Some x.
Proof. rewrite nget_app_r by lia. now rewrite N.sub_diag. Qed.
Lemma nget_app_some l1 l2 i x : nget l1 i = Some x -> nget (l1 ++ l2) i = Some x.
Proof. intros H. rewrite nget_app_l; [exact H|]. eapply nget_some_lt; eauto. Qed.
Lemma nget_snoc_inv l x i y : nget (l ++ [x]) i = Some y -> nget l i = Some y \/ i = nlen l /\ y = x.
Proof.
  intros H. destruct (N.lt_ge_cases i (nlen l)) as [L|L]; [left; now rewrite nget_app_l in H|]. right. rewrite nget_app_r in H by exact L.
  pose proof (nget_some_lt _ _ _ H) as Hi. change (nlen [x]) with 1 in Hi. replace i with (nlen l) in * by lia. rewrite N.sub_diag in H. now inversion H.
Qed.
Lemma nget_in l i x : nget l i = Some x -> In x l.
Proof. rewrite nget_nth. apply nth_error_In. Qed.
Lemma in_nget l x : In x l -> exists i, nget l i = Some x.
Proof. intros H. apply In_nth_error in H as [n Hn]. exists (N.of_nat n). now rewrite nget_nth, Nat2N.id. Qed.
Lemma nget_split l i x : nget l i = Some x -> exists l1 l2, l = l1 ++ x :: l2 /\ nlen l1 = i.
Proof. rewrite nget_nth. intros H. apply nth_error_split in H as (l1 & l2 & -> & Hl). exists l1, l2. split; [reflexivity|]. unfold nlen. lia. Qed.
Lemma NoDup_nget l : (forall i j x, nget l i = Some x -> nget l j = Some x -> i = j) -> NoDup l.
Proof.
  intros Hinj. apply NoDup_nth_error. intros i j Hi E. apply nth_error_Some in Hi. destruct (nth_error l i) as [x|] eqn:Ei; [|congruence].
  apply Nat2N.inj, (Hinj _ _ x); now rewrite nget_nth, Nat2N.id.
Qed.

Lemma nlen_nset l : forall i x, nlen (nset l i x) = nlen l.
Proof.
  induction l as [|h t IH]; intros i x; [reflexivity|]. cbn [nset]. destruct (i =? 0); rewrite !nlen_cons; [reflexivity|now rewrite IH].
Qed.
Lemma nget_nset_eq l : forall i x, i < nlen l -> nget (nset l i x) i = Some x.
Proof.
  induction l as [|h t IH]; intros i x H; [rewrite nlen_nil in H; lia|]. rewrite nlen_cons in H. cbn [nset].
  destruct (i =? 0) eqn:E; cbn [nget]; rewrite E; try reflexivity. apply N.eqb_neq in E. apply IH. lia.
Qed.
Lemma nget_nset_neq l : forall i j x, i <> j -> nget (nset l i x) j = nget l j.
Proof.
  induction l as [|h t IH]; intros i j x H; [reflexivity|]. cbn [nset].
  destruct (i =? 0) eqn:E; cbn [nget]; destruct (j =? 0) eqn:F; try reflexivity.
  - apply N.eqb_eq in E, F. lia.
  - apply N.eqb_neq in E, F. apply IH. lia.
Qed.

Lemma nget_nset l i j x : nget (nset l i x) j = if j =? i then (if i <? nlen l then Some x else None) else nget l j.
Proof.
  destruct (N.eqb_spec j i) as [->|E]; [|apply nget_nset_neq; congruence].
  destruct (N.ltb_spec i (nlen l)) as [L|L]; [now apply nget_nset_eq|]. apply nget_ge_none. now rewrite nlen_nset.
Qed.
Lemma nset_app_mid l1 x l2 y : nset (l1 ++ x :: l2) (nlen l1) y = l1 ++ y :: l2.
Proof.
  induction l1 as [|h t IH]; [reflexivity|]. cbn [app nset]. rewrite nlen_cons.
  destruct (N.eqb_spec (nlen t + 1) 0) as [E|_]; [lia|]. now rewrite N.add_1_r, N.pred_succ, IH.
Qed.
Lemma nset_same l : forall i x, nget l i = Some x -> nset l i x = l.
Proof.
  induction l as [|h t IH]; intros i x H; [reflexivity|]. cbn [nget nset] in *. destruct (i =? 0); [now inversion H|]. f_equal. now apply IH.
Qed.
Lemma Forall_nset (P : A -> Prop) x l : P x -> Forall P l -> forall i, Forall P (nset l i x).
Proof. intros Hx. induction 1 as [|h t Hh Ht IH]; intros i; cbn [nset]; [constructor|]. destruct (i =? 0); constructor; auto. Qed.

(* Vec::resize_with: old entries stay, the new ones are [d] *)
Lemma nget_nrepeat_to (d : A) n : forall l i,
  nget (nrepeat_to l n d) i = match nget l i with Some x => Some x | None => if i <? N.of_nat n then Some d else None end.
Proof.
  induction n as [|n IH]; intros l i; cbn [nrepeat_to].
  - destruct (nget l i); [reflexivity|now destruct i].
  - assert (E : i <> 0 -> (N.pred i <? N.of_nat n) = (i <? N.of_nat (S n))).
    { intros Hi. destruct (N.ltb_spec (N.pred i) (N.of_nat n)), (N.ltb_spec i (N.of_nat (S n))); lia || reflexivity. }
    destruct l as [|h t]; cbn [nget]; (destruct (N.eqb_spec i 0) as [->|Hi]; [reflexivity|]); rewrite IH, (E Hi); reflexivity.
Qed.
Lemma nlen_nrepeat_to l n (d : A) : nlen (nrepeat_to l n d) = N.max (nlen l) (N.of_nat n).
Proof.
  revert l. induction n as [|n IH]; intros l; cbn [nrepeat_to]; [lia|].
  destruct l as [|h t]; rewrite !nlen_cons, IH, ?nlen_nil; lia.
Qed.
Lemma nget_nrepeat_to_iff (d : A) n l i x : x <> d -> nget (nrepeat_to l n d) i = Some x <-> nget l i = Some x.
Proof. intros Hx. rewrite nget_nrepeat_to. destruct (nget l i); [reflexivity|]. destruct (i <? N.of_nat n); split; intros H; inversion H; congruence. Qed.
Lemma Forall_nrepeat_to (P : A -> Prop) d n : P d -> forall l, Forall P l -> Forall P (nrepeat_to l n d).
Proof. intros Hd. induction n as [|n IH]; intros l H; cbn [nrepeat_to]; [exact H|]. destruct H; constructor; auto. Qed.

(* Iterator::position: the first element satisfying [p] *)
Lemma nposition_none p l : nposition p l = None -> forall x, In x l -> p x = false.
Proof.
  induction l as [|h t IH]; cbn [nposition]; intros Hn x Hin; [destruct Hin|].
  destruct (p h) eqn:E; [discriminate|]. destruct (nposition p t); [discriminate|]. destruct Hin as [<-|Hin]; auto.
Qed.
Lemma nposition_split p l : forall i, nposition p l = Some i ->
  exists l1 x l2, l = l1 ++ x :: l2 /\ nlen l1 = i /\ p x = true /\ forall y, In y l1 -> p y = false.
Proof.
  induction l as [|h t IH]; cbn [nposition]; intros i Hs; [discriminate|]. destruct (p h) eqn:E.
  - inversion Hs. exists [], h, t. repeat split; [exact E|intros y []].
  - destruct (nposition p t) as [j|]; [|discriminate]. inversion Hs. destruct (IH j eq_refl) as (l1 & x & l2 & -> & <- & Hx & Hl1).
    exists (h :: l1), x, l2. rewrite nlen_cons. repeat split; [lia|exact Hx|]. intros y [<-|Hy]; auto.
Qed.

Lemma nlen_removelast l : l <> [] -> nlen (removelast l) + 1 = nlen l.
Proof.
  intros H. destruct (exists_last H) as (l' & x & ->). rewrite removelast_last, nlen_app. reflexivity.
Qed.

(* swap_remove on a list written as  l ++ [last] *)
Lemma swap_remove_snoc l x i : swap_remove (l ++ [x]) i = if i =? nlen l then l else nset l i x.
Proof.
  unfold swap_remove. rewrite rev_app_distr. cbn [rev app]. rewrite removelast_last, nlen_app.
  replace (nlen l + nlen [x] - 1) with (nlen l) by (unfold nlen; cbn [length]; lia). reflexivity.
Qed.
Lemma swap_remove_nil i : swap_remove (@nil A) i = []. Proof. reflexivity. Qed.

Lemma nlen_swap_remove l i : i < nlen l -> nlen (swap_remove l i) + 1 = nlen l.
Proof.
  intros H. destruct l as [|h t] using rev_ind; [rewrite nlen_nil in H; lia|]. clear IHt.
  rewrite swap_remove_snoc, nlen_app. destruct (i =? nlen t) eqn:E; [reflexivity|]. now rewrite nlen_nset.
Qed.

Lemma nget_swap_remove l i j : i < nlen l ->
  nget (swap_remove l i) j =
    if j =? i then (if i =? nlen l - 1 then None else nget l (nlen l - 1))
    else if j <? nlen l - 1 then nget l j else None.
Proof.
  intros Hi. destruct l as [|x t _] using rev_ind; [rewrite nlen_nil in Hi; lia|].
  rewrite swap_remove_snoc, nlen_app in *. change (nlen [x]) with 1 in *. rewrite N.add_sub, nget_snoc_last.
  assert (G : nget t j = if j <? nlen t then nget (t ++ [x]) j else None).
  { destruct (N.ltb_spec j (nlen t)); [now rewrite nget_app_l|now apply nget_ge_none]. }
  destruct (N.eqb_spec i (nlen t)) as [->|E].
  - destruct (N.eqb_spec j (nlen t)) as [->|F]; [apply nget_ge_none; lia|exact G].
  - rewrite nget_nset. destruct (N.eqb_spec j i); [|exact G]. destruct (N.ltb_spec i (nlen t)); [reflexivity|lia].
Qed.
Lemma nget_swap_remove_hole l i : i < nlen l -> i <> nlen l - 1 -> nget (swap_remove l i) i = nget l (nlen l - 1).
Proof. intros Hi N. rewrite nget_swap_remove, N.eqb_refl by exact Hi. now destruct (N.eqb_spec i (nlen l - 1)). Qed.
Lemma nget_swap_remove_other l i j : i < nlen l -> j <> i -> j <> nlen l - 1 -> nget (swap_remove l i) j = nget l j.
Proof.
  intros Hi N1 N2. rewrite nget_swap_remove by exact Hi. destruct (N.eqb_spec j i); [contradiction|].
  destruct (N.ltb_spec j (nlen l - 1)); [reflexivity|]. symmetry. apply nget_ge_none. lia.
Qed.
Lemma swap_remove_rows l i j x : i < nlen l ->
  nget (swap_remove l i) j = Some x <->
  (j <> i /\ j <> nlen l - 1 /\ nget l j = Some x) \/ (j = i /\ i <> nlen l - 1 /\ nget l (nlen l - 1) = Some x).
Proof.
  intros Hi. split.
  - intros H. rewrite nget_swap_remove in H by exact Hi. destruct (N.eqb_spec j i) as [->|N]; [destruct (N.eqb_spec i (nlen l - 1)); [discriminate|auto]|].
    destruct (N.ltb_spec j (nlen l - 1)); [left; repeat split; [exact N|lia|exact H]|discriminate].
  - intros [(Hj & Hl & <-)|(-> & Hl & <-)]; [now apply nget_swap_remove_other|now apply nget_swap_remove_hole].
Qed.

Lemma skipn_nget l : forall i x, nget l i = Some x -> skipn (N.to_nat i) l = x :: skipn (N.to_nat i + 1) l.
Proof.
  induction l as [|y t IH]; intros i x H; [discriminate|]. cbn [nget] in H. destruct (N.eqb_spec i 0) as [->|E]; [now inversion H|].
  apply IH in H. replace (N.to_nat i) with (S (N.to_nat (N.pred i))) by lia. exact H.
Qed.
End L.

Lemma fold_left_invariant {A B} (P : A -> Prop) (f : A -> B -> A) (l : list B) (x : A) :
  P x -> (forall acc y, P acc -> P (f acc y)) -> P (fold_left f l x).
Proof. intros Hx Hf. revert x Hx. induction l as [|y l IH]; intros x Hx; cbn; auto. Qed.

Lemma nposition_eqb_none (a : N) l : ~ In a l -> nposition (N.eqb a) l = None.
Proof.
  intros Hn. destruct (nposition (N.eqb a) l) as [i|] eqn:E; [|reflexivity].
  destruct (nposition_split _ _ _ E) as (l1 & x & l2 & -> & _ & Hx & _). apply N.eqb_eq in Hx. subst x. elim Hn. apply in_elt.
Qed.
Lemma nposition_eqb_split (a : N) l : In a l ->
  exists l1 l2, l = l1 ++ a :: l2 /\ ~ In a l1 /\ nposition (N.eqb a) l = Some (nlen l1).
Proof.
  intros Hin. destruct (nposition (N.eqb a) l) as [i|] eqn:E.
  - destruct (nposition_split _ _ _ E) as (l1 & x & l2 & -> & <- & Hx & Hl1). apply N.eqb_eq in Hx. subst x.
    exists l1, l2. repeat split. intros X. apply Hl1 in X. rewrite N.eqb_refl in X. discriminate.
  - apply (nposition_none _ _ E) in Hin. rewrite N.eqb_refl in Hin. discriminate.
Qed.

(* shrink_to_fit: the trailing entries equal to [d] go; [nstrip d] works on the reversed list.
   [d] is bound outside the fix, so that [nstrip d] is convertible with SparseMap.strip_max and BitSet.strip0 *)
Definition nstrip (d : N) : list N -> list N :=
  fix go r := match r with [] => [] | x :: t => if x =? d then go t else r end.
Lemma nstrip_spec d r : exists n, r = repeat d n ++ nstrip d r.
Proof.
  induction r as [|x t [n IH]]; [exists O; reflexivity|]. cbn [nstrip]. destruct (N.eqb_spec x d) as [->|]; [|exists O; reflexivity].
  exists (S n). cbn [repeat app]. now rewrite <- IH.
Qed.
Lemma nstrip_split d l : exists pad, l = rev (nstrip d (rev l)) ++ pad /\ forall y, In y pad -> y = d.
Proof.
  destruct (nstrip_spec d (rev l)) as [n Hn]. exists (rev (repeat d n)). split.
  - rewrite <- rev_app_distr, <- Hn. now rewrite rev_involutive.
  - intros y Hy. apply in_rev in Hy. now apply repeat_spec in Hy.
Qed.

Lemma nget_map {A B} (f : A -> B) l i : nget (map f l) i = option_map f (nget l i).
Proof. rewrite !nget_nth. apply nth_error_map. Qed.
(* a view that is coarser than another one follows it, whatever the two are views of *)
Lemma map_eq_factor {A B C} (F : A -> B) (G : A -> C) : (forall x x', F x' = F x -> G x' = G x) ->
  forall l l', map F l' = map F l -> map G l' = map G l.
Proof.
  intros R. induction l as [|x l IH]; intros [|x' l'] H; cbn [map] in *; try discriminate; [reflexivity|].
  injection H as Hx Hl. now rewrite (R x x' Hx), (IH l' Hl).
Qed.
Lemma nlen_map {A B} (f : A -> B) l : nlen (map f l) = nlen l.
Proof. unfold nlen. now rewrite map_length. Qed.
Lemma map_nset {A B} (f : A -> B) l : forall i x, map f (nset l i x) = nset (map f l) i (f x).
Proof. induction l as [|h t IH]; intros i x; cbn [nset map]; [reflexivity|]. destruct (i =? 0); cbn [map]; [reflexivity|now rewrite IH]. Qed.

Lemma alookup_in {V} k (v : V) l : alookup k l = Some v -> In (k, v) l.
Proof.
  induction l as [|[k' v'] t IH]; cbn; [discriminate|]. destruct (k =? k') eqn:E; [|auto].
  apply N.eqb_eq in E. subst. intros H. inversion H. now left.
Qed.

Lemma in_sinsert k l x : In x (sinsert k l) <-> x = k \/ In x l.
Proof.
  induction l as [|h t IH]; cbn [sinsert]; [cbn; intuition|].
  destruct (k <? h); [cbn; intuition|]. destruct (k =? h) eqn:E; [apply N.eqb_eq in E; subst; cbn; intuition|].
  cbn [In]. rewrite IH. intuition.
Qed.
Lemma smem_in k l : smem k l = true <-> In k l.
Proof.
  unfold smem. rewrite existsb_exists. split; [intros (x & A & B); apply N.eqb_eq in B; now subst|intros H; exists k; split; [exact H|apply N.eqb_refl]].
Qed.
Lemma smem_fold_sinsert {A} (f : A -> N) l : forall s i, smem i (fold_left (fun s x => sinsert (f x) s) l s) = true <-> smem i s = true \/ In i (map f l).
Proof.
  induction l as [|x l IH]; intros s i; cbn [fold_left map]; [cbn; intuition|].
  rewrite IH. rewrite !smem_in, in_sinsert. cbn [In]. intuition.
Qed.

