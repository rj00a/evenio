(* Effects.v : the built-in effect of Insert on the world model, end to end (C02, C09, C17):
   on a world whose storage and archetype graph are consistent, applying Insert<C>(v) to a live
   entity never fails, keeps both invariants, makes the entity's C read back v, and changes no
   other component of that entity and no component of any other entity. *)
From Coq Require Import List NArith Bool Lia Sorted.
Import ListNotations.
Require Import EV.Base EV.ListN EV.Access EV.Query EV.SlotMap EV.Reserve EV.HList EV.Loop EV.World EV.StorageSpec EV.SlotMapGet EV.ArchProofs EV.Store EV.Graph.
Open Scope N_scope.

Lemma row_col_alookup a vals c : row_col a vals c = alookup c (combine (a_comps a) vals).
Proof.
  unfold row_col. generalize (a_comps a) as cs. intros cs. revert vals. induction cs as [|h t IH]; intros vals; cbn [col_index combine alookup].
  - reflexivity.
  - destruct vals as [|v vs]; cbn [combine alookup].
    + destruct (c =? h); [reflexivity|]. destruct (col_index t c); reflexivity.
    + destruct (c =? h) eqn:E; [reflexivity|]. specialize (IH vs). destruct (col_index t c) as [i|]; cbn [option_map] in *.
      * rewrite nget_cons_S by lia. now rewrite N.pred_succ.
      * exact IH.
Qed.

Lemma merge_row_insert_spec : forall sc sv c v fuel,
  length sv = length sc -> ~ In c sc -> (length sc + length sc + 1 < fuel)%nat ->
  exists dvals, merge_row fuel sc sv (sorted_insert c sc) (Some (c, v)) = Some (dvals, []) /\
    forall c', alookup c' (combine (sorted_insert c sc) dvals) = if c' =? c then Some v else alookup c' (combine sc sv).
Proof. exact merge_row_insert_walk. Qed.

Definition same_graph (a b : arch) : Prop := a_comps a = a_comps b /\ a_ins a = a_ins b /\ a_rem a = a_rem b.
Lemma GraphInv_set w i a a' : GraphInv w -> arch_at w i = Some a -> same_graph a' a ->
  GraphInv (set_archs w (slab_set (w_archs w) i a')).
Proof. intros Hg Ha (Hc & Hi & Hr). apply (GraphInv_set_gen w i a a' Hg Ha Hc); intros c d He; left; [rewrite <- Hi|rewrite <- Hr]; exact He. Qed.

(* the two archetypes touched by a move keep their components and transitions *)
Lemma GraphInv_move w sai dst sa da sa' da' w' :
  GraphInv w -> arch_at w sai = Some sa -> arch_at w dst = Some da -> sai <> dst ->
  same_graph sa' sa -> same_graph da' da ->
  w_archs w' = slab_set (slab_set (w_archs w) sai sa') dst da' -> w_aby w' = w_aby w -> GraphInv w'.
Proof.
  intros Hg Hsa Hda Hne Gs Gd Harchs Haby.
  pose proof (GraphInv_set w sai sa sa' Hg Hsa Gs) as H1.
  assert (Hda1 : arch_at (set_archs w (slab_set (w_archs w) sai sa')) dst = Some da).
  { unfold arch_at. cbn [w_archs set_archs]. rewrite slab_get_set_neq by exact Hne. exact Hda. }
  pose proof (GraphInv_set _ dst da da' H1 Hda1 Gd) as H2. cbn [w_archs set_archs] in H2.
  eapply GraphInv_ext; [| |exact H2]; cbn [w_archs w_aby set_archs]; assumption.
Qed.

Lemma col_index_in cs c : In c cs -> exists i, col_index cs c = Some i /\ i < nlen cs.
Proof.
  induction cs as [|h t IH]; intros H; [destruct H|]. cbn [col_index]. destruct (c =? h) eqn:E.
  - exists 0. split; [reflexivity|]. rewrite nlen_cons. lia.
  - destruct H as [->|H]; [rewrite N.eqb_refl in E; discriminate|]. destruct (IH H) as (i & -> & Hl). exists (N.succ i). split; [reflexivity|].
    rewrite nlen_cons. lia.
Qed.
Lemma col_index_inj cs c c' : forall i, col_index cs c = Some i -> col_index cs c' = Some i -> c = c'.
Proof.
  induction cs as [|h t IH]; intros i Hc Hc'; [discriminate|]. cbn [col_index] in *.
  destruct (N.eqb_spec c h) as [->|_], (N.eqb_spec c' h) as [->|_]; [reflexivity| | |].
  - destruct (col_index t c'); [injection Hc as <-; cbn in Hc'; injection Hc'; lia|discriminate].
  - destruct (col_index t c); [injection Hc' as <-; cbn in Hc; injection Hc; lia|discriminate].
  - destruct (col_index t c) as [x|], (col_index t c') as [y|]; try discriminate. cbn in *. apply (IH x eq_refl). f_equal. injection Hc. injection Hc'. lia.
Qed.
Lemma alookup_combine_notin {V} c cs : forall vals : list V, ~ In c cs -> alookup c (combine cs vals) = None.
Proof.
  induction cs as [|h t IH]; intros [|v vals] H; try reflexivity. cbn [combine alookup].
  destruct (N.eqb_spec c h) as [->|_]; [elim H; now left|]. apply IH. intros X. apply H. now right.
Qed.

(* overwriting a component the entity already has (archetype.rs:363-376) *)
Lemma StoreInv_set_vals w i a row e vals vals' : StoreInv w -> arch_at w i = Some a -> nget (a_rows a) row = Some (e, vals) ->
  length vals' = length vals -> StoreInv (set_archs w (slab_set (w_archs w) i (set_rows a (nset (a_rows a) row (e, vals'))))).
Proof.
  intros (Hsm & Hl & Hr) Ha Hrow Hlen. unfold StoreInv, arch_at in *. cbn [w_ents w_archs set_archs].
  pose proof (nget_some_lt _ _ _ Hrow) as Hlt. split; [exact Hsm|]. split.
  - intros k aj rj Hk. destruct (Hl _ _ _ Hk) as (b & vb & Hb & Hn). rewrite (slab_get_set _ i a _ aj Ha). destruct (N.eqb_spec aj i) as [->|_]; [|eauto].
    rewrite Ha in Hb. injection Hb as <-. cbn [a_rows set_rows]. destruct (N.eq_dec row rj) as [<-|Hne].
    + rewrite Hrow in Hn. injection Hn as <- <-. exists (set_rows a (nset (a_rows a) row (e, vals'))), vals'. split; [reflexivity|]. now apply nget_nset_eq.
    + exists (set_rows a (nset (a_rows a) row (e, vals'))), vb. split; [reflexivity|]. cbn [a_rows set_rows]. now rewrite nget_nset_neq by exact Hne.
  - intros aj b rj k vk Hb Hn. rewrite (slab_get_set _ i a _ aj Ha) in Hb. destruct (N.eqb_spec aj i) as [->|_]; [|eauto].
    injection Hb as <-. cbn [a_rows a_comps set_rows] in *. destruct (N.eq_dec row rj) as [<-|Hne].
    + rewrite nget_nset_eq in Hn by exact Hlt. injection Hn as <- <-. rewrite Hlen. eauto.
    + rewrite nget_nset_neq in Hn by exact Hne. eauto.
Qed.

Theorem overwrite_ok w sai srow sa e vals c v ci old :
  StoreInv w -> arch_at w sai = Some sa -> nget (a_rows sa) srow = Some (e, vals) ->
  col_index (a_comps sa) c = Some ci -> nget vals ci = Some old ->
  exists w', move_entity w (sai, srow) sai (Some (c, v)) = ROk tt w' /\ StoreInv w' /\
             w_aby w' = w_aby w /\ w_archs w' = slab_set (w_archs w) sai (set_rows sa (nset (a_rows sa) srow (e, nset vals ci v))) /\
             (forall k c', k <> e -> abs w' k c' = abs w k c') /\
             abs w' e c = Some v /\ (forall c', c' <> c -> abs w' e c' = abs w e c').
Proof.
  intros Hinv Ha Hrow Hci Hold. pose proof (nget_some_lt _ _ _ Hrow) as Hrl.
  exists (overwritten w sai srow sa e vals c v ci). split; [now apply move_entity_overwrites|].
  rewrite overwritten_eq. set (w1 := set_drops w _).
  set (sa' := set_rows sa (nset (a_rows sa) srow (e, nset vals ci v))). set (wf := set_archs w1 (slab_set (w_archs w) sai sa')).
  assert (Hat : forall j, arch_at wf j = if j =? sai then Some sa' else arch_at w j) by (intros j; exact (slab_get_set _ sai sa sa' j Ha)).
  assert (Hinvf : StoreInv wf).
  { apply (StoreInv_ext (set_archs w (slab_set (w_archs w) sai sa'))); [reflexivity|reflexivity|].
    apply (StoreInv_set_vals w sai sa srow e vals _ Hinv Ha Hrow). pose proof (nlen_nset vals ci v) as X. unfold nlen in X. lia. }
  assert (Habs_e : forall c', abs wf e c' = row_col sa (nset vals ci v) c').
  { intros c'. apply (abs_of_row wf sai sa' srow e _ c' Hinvf); [rewrite Hat, N.eqb_refl; reflexivity|apply nget_nset_eq; exact Hrl]. }
  split; [exact Hinvf|]. split; [reflexivity|]. split; [reflexivity|]. split; [|split].
  - intros k c' Hke. apply abs_kept; [exact Hinv|exact Hinvf| |exact (fun X => X)].
    intros aj b rj vb Hb Hn. exists aj. rewrite Hat. destruct (N.eqb_spec aj sai) as [->|_]; [|eauto].
    rewrite Ha in Hb. injection Hb as <-. exists sa', rj. split; [reflexivity|]. split; [reflexivity|].
    cbn [sa' a_rows set_rows]. rewrite nget_nset_neq; [exact Hn|]. intros ->. rewrite Hrow in Hn. injection Hn as Hek _. now apply Hke.
  - rewrite Habs_e. unfold row_col. rewrite Hci. apply nget_nset_eq. eapply nget_some_lt; eauto.
  - intros c' Hne. rewrite Habs_e, (abs_of_row w sai sa srow e vals c' Hinv Ha Hrow). unfold row_col.
    destruct (col_index (a_comps sa) c') as [i|] eqn:Ei; [|reflexivity]. apply nget_nset_neq.
    intros <-. apply Hne. symmetry. exact (col_index_inj _ _ _ _ Hci Ei).
Qed.

(* the move behind Insert and Remove: [w1] comes from [w] by a traversal that found the destination [d]; the column walk
   computes the update of the entity's row that sets component [c] to [f] *)
Lemma move_effect w w1 e sai srow sa1 vals d da c nw f :
  StoreInv w1 -> GraphInv w1 -> (forall e k, abs w1 e k = abs w e k) ->
  (forall cs ai, aby_lookup w cs = Some ai -> aby_lookup w1 cs = Some ai) ->
  arch_at w1 sai = Some sa1 -> nget (a_rows sa1) srow = Some (e, vals) -> d <> sai -> arch_at w1 d = Some da ->
  (exists dvals killed, merge_row (S (length (a_comps sa1) + length (a_comps da))) (a_comps sa1) vals (a_comps da) nw = Some (dvals, killed) /\
     forall c', alookup c' (combine (a_comps da) dvals) = if c' =? c then f else alookup c' (combine (a_comps sa1) vals)) ->
  exists w', move_entity w1 (sai, srow) d nw = ROk tt w' /\ StoreInv w' /\ GraphInv w' /\
    abs w' e c = f /\ (forall c', c' <> c -> abs w' e c' = abs w e c') /\
    (forall k c', k <> e -> abs w' k c' = abs w k c') /\
    (forall cs ai, aby_lookup w cs = Some ai -> aby_lookup w' cs = Some ai).
Proof.
  intros Hst Hg Habs1 Hmono Hsa Hrow Hds Hda (dvals & killed & Em & Hspec).
  destruct (move_entity_ok w1 sai srow d sa1 da e vals nw dvals killed Hst Hsa Hda (fun X => Hds (eq_sym X)) Hrow Em)
    as (w' & Emv & Hst' & Hoth & He & (cap' & ep' & Harchs') & Haby').
  assert (Habs_e : forall c', abs w' e c' = if c' =? c then f else abs w e c').
  { intros c'. rewrite He, row_col_alookup, Hspec, <- Habs1, (abs_of_row w1 sai sa1 srow e vals c' Hst Hsa Hrow). now rewrite row_col_alookup. }
  exists w'. split; [exact Emv|]. split; [exact Hst'|]. split.
  { eapply (GraphInv_move w1 sai d sa1 da); [exact Hg|exact Hsa|exact Hda|exact (fun X => Hds (eq_sym X))| | |exact Harchs'|exact Haby']; repeat split. }
  split; [rewrite Habs_e, N.eqb_refl; reflexivity|]. split; [intros c' Hne; now rewrite Habs_e, (proj2 (N.eqb_neq c' c) Hne)|].
  split; [intros k c' Hk; rewrite (Hoth k c' Hk); apply Habs1|]. intros cs ai X. unfold aby_lookup. rewrite Haby'. exact (Hmono cs ai X).
Qed.

(* C02 / C09 / C17 / C01: the built-in effect of Insert on a live entity *)
Theorem insert_effect_ok w e sai srow c v :
  StoreInv w -> GraphInv w -> sm_get e (w_ents w) = Some (sai, srow) ->
  exists w', (do (d, w2) <- traverse_insert w sai c; move_entity w2 (sai, srow) d (Some (c, v))) = ROk tt w' /\
    StoreInv w' /\ GraphInv w' /\
    abs w' e c = Some v /\ (forall c', c' <> c -> abs w' e c' = abs w e c') /\
    (forall k c', k <> e -> abs w' k c' = abs w k c') /\
    (forall cs ai, aby_lookup w cs = Some ai -> aby_lookup w' cs = Some ai).
Proof.
  intros Hst Hg Hge. pose proof Hst as (_ & Hl & Hr). destruct (Hl _ _ _ Hge) as (sa & vals & Hsa & Hrow).
  destruct (Hr _ _ _ _ _ Hsa Hrow) as [_ Hvlen].
  destruct (traverse_insert_ok w sai sa c Hst Hg Hsa) as (d & w1 & Et & Hst1 & Hg1 & Habs1 & Hents1 & (sa1 & Hsa1 & Hc1 & Hr1) & Hin & Hnin & Hmono).
  rewrite Et. cbn [rbind]. rewrite <- Hr1 in Hrow. rewrite <- Hc1 in Hvlen, Hin, Hnin.
  destruct (in_dec N.eq_dec c (a_comps sa1)) as [Hc|Hc].
  - (* the entity already has the component: the value is replaced in place *)
    rewrite (Hin Hc). destruct (col_index_in _ _ Hc) as (ci & Hci & Hcil).
    destruct (nget_lt_some vals ci) as (old & Hold); [unfold nlen in *; lia|].
    destruct (overwrite_ok w1 sai srow sa1 e vals c v ci old Hst1 Hsa1 Hrow Hci Hold) as (w' & Em & Hst' & Haby' & Harchs' & Hoth & Hec & Heo).
    exists w'. split; [exact Em|]. split; [exact Hst'|]. split.
    + apply (GraphInv_ext (set_archs w1 (slab_set (w_archs w1) sai (set_rows sa1 (nset (a_rows sa1) srow (e, nset vals ci v)))))); [exact Harchs'|exact Haby'|].
      apply (GraphInv_set w1 sai sa1 _ Hg1 Hsa1). repeat split.
    + split; [exact Hec|]. split; [intros c' Hne; rewrite (Heo c' Hne); apply Habs1|]. split; [intros k c' Hk; rewrite (Hoth k c' Hk); apply Habs1|].
      intros cs ai X. unfold aby_lookup. rewrite Haby'. exact (Hmono cs ai X).
  - (* the entity moves to the archetype with the component added *)
    destruct (Hnin Hc) as (Hds & da & Hda & Hdc).
    apply (move_effect w w1 e sai srow sa1 vals d da c (Some (c, v)) (Some v) Hst1 Hg1 Habs1 Hmono Hsa1 Hrow Hds Hda).
    destruct (merge_row_insert_spec (a_comps sa1) vals c v (S (length (a_comps sa1) + length (a_comps da))) Hvlen Hc) as (dvals & Em & Hspec);
      [rewrite Hdc, sorted_insert_length; lia|]. rewrite <- Hdc in Em, Hspec. exists dvals, []. exact (conj Em Hspec).
Qed.

Lemma merge_row_remove_spec : forall sc sv c fuel,
  length sv = length sc -> StronglySorted N.lt sc -> (length sc + length (filter (fun x => negb (x =? c)) sc) < fuel)%nat ->
  exists dvals killed, merge_row fuel sc sv (filter (fun x => negb (x =? c)) sc) None = Some (dvals, killed) /\
    forall c', alookup c' (combine (filter (fun x => negb (x =? c)) sc) dvals) = if c' =? c then None else alookup c' (combine sc sv).
Proof. exact merge_row_remove_walk. Qed.

(* C02 / C09 / C17 / C01: the built-in effect of Remove on a live entity: never fails, keeps
   both invariants, the entity no longer has the component, nothing else changes; removing an
   absent component changes nothing at all *)
Theorem remove_effect_ok w e sai srow c :
  StoreInv w -> GraphInv w -> sm_get e (w_ents w) = Some (sai, srow) ->
  exists w', (do (d, w2) <- traverse_remove w sai c; move_entity w2 (sai, srow) d None) = ROk tt w' /\
    StoreInv w' /\ GraphInv w' /\
    abs w' e c = None /\ (forall c', c' <> c -> abs w' e c' = abs w e c') /\
    (forall k c', k <> e -> abs w' k c' = abs w k c') /\
    (forall cs ai, aby_lookup w cs = Some ai -> aby_lookup w' cs = Some ai).
Proof.
  intros Hst Hg Hge. pose proof Hst as (_ & Hl & Hr). destruct (Hl _ _ _ Hge) as (sa & vals & Hsa & Hrow).
  destruct (Hr _ _ _ _ _ Hsa Hrow) as [_ Hvlen].
  destruct (traverse_remove_ok w sai sa c Hst Hg Hsa) as (d & w1 & Et & Hst1 & Hg1 & Habs1 & Hents1 & (sa1 & Hsa1 & Hc1 & Hr1) & Hnin & Hin & Hmono).
  rewrite Et. cbn [rbind]. rewrite <- Hr1 in Hrow. rewrite <- Hc1 in Hvlen, Hin, Hnin.
  assert (Habs_e : forall c', abs w e c' = alookup c' (combine (a_comps sa1) vals)).
  { intros c'. rewrite <- Habs1, (abs_of_row w1 sai sa1 srow e vals c' Hst1 Hsa1 Hrow). apply row_col_alookup. }
  destruct (in_dec N.eq_dec c (a_comps sa1)) as [Hc|Hc].
  - destruct (Hin Hc) as (Hds & da & Hda & Hdc).
    apply (move_effect w w1 e sai srow sa1 vals d da c None None Hst1 Hg1 Habs1 Hmono Hsa1 Hrow Hds Hda). rewrite Hdc.
    apply merge_row_remove_walk; [exact Hvlen|exact (proj2 (proj2 (proj2 (proj2 (proj2 Hg1)))) _ _ Hsa1)|lia].
  - (* the entity does not have the component: move_entity to its own archetype with nothing new is the identity *)
    rewrite (Hnin Hc). exists w1. split; [exact (move_entity_stays w1 sai srow sa1 Hsa1)|]. split; [exact Hst1|]. split; [exact Hg1|].
    split; [|split; [intros; apply Habs1|split; [intros; apply Habs1|exact Hmono]]].
    rewrite Habs1, Habs_e. now apply alookup_combine_notin.
Qed.

Definition WInv (w : world) : Prop := StoreInv w /\ GraphInv w /\ aby_lookup w [] = Some 0.

Lemma WInv_arch0 w : WInv w -> exists a0, arch_at w 0 = Some a0 /\ a_comps a0 = [].
Proof. intros (_ & (_ & _ & Hb2 & _) & H0). exact (Hb2 _ _ H0). Qed.

Lemma insert_key_indep {V} (f g : key -> V) m k m' : insert_with f m = Some (k, m') -> exists m'', insert_with g m = Some (k, m'').
Proof.
  unfold insert_with. destruct (sget (slots m) (next_free m)) as [s|].
  - intros [= <- _]. eauto.
  - destruct (_ =? U32MAX); [discriminate|]. intros [= <- _]. eauto.
Qed.

(* one materialised reservation: archetypes.spawn(id) + the slot-map insertion *)
Lemma spawn_one_loc w k ents' : WInv w -> insert_with (fun _ => spawn_loc w) (w_ents w) = Some (k, ents') ->
  let w' := set_ents (snd (arch_spawn w k)) ents' in
  WInv w' /\ (forall c, abs w' k c = None) /\ sm_get k ents' = Some (spawn_loc w) /\
  (forall e c, e <> k -> abs w' e c = abs w e c) /\ (forall e, e <> k -> sm_get e ents' = sm_get e (w_ents w)) /\ w_aby w' = w_aby w.
Proof.
  intros HW Hins. pose proof HW as (Hst & Hg & H0). destruct (WInv_arch0 w HW) as (a0 & Ha0 & Hc0). pose proof Hst as (Hsm & _).
  pose proof (insert_get_new _ _ _ _ Hsm Hins) as Hknew. pose proof (fun e He => insert_get_other _ _ _ _ e Hsm Hins He) as Hkold.
  cbv zeta. rewrite arch_spawn_eq. cbn [snd]. unfold spawn_loc in *. unfold arch_at in Ha0. rewrite Ha0 in *.
  set (a2 := pushed a0 (k, [])). rewrite row_spawned_eq. fold a2. set (w' := set_ents (set_hs _ _) ents').
  pose proof (StoreInv_but w k ents' Hst (insert_inv _ _ _ _ Hsm Hins) (insert_get_fresh _ _ _ _ Hsm Hins) Hkold) as Hbut.
  assert (Hlen : length (@nil cval) = length (a_comps a0)) by now rewrite Hc0.
  pose proof (pushed_view a_comps (fun _ _ => eq_refl) (fun _ _ _ => eq_refl) a0 (k, []) : a_comps a2 = _) as Hc2.
  pose proof (push_stored k ents' _ 0 a0 a2 [] Hbut Ha0 Hknew Hc2 (pushed_rows a0 _) Hlen w' eq_refl eq_refl) as Hst'.
  destruct (push_new k _ 0 a0 a2 [] Ha0 (pushed_rows a0 _)) as [Hnew Hnrow].
  split; [split; [exact Hst'|split; [|exact H0]]|].
  { apply (GraphInv_ext (set_archs w (slab_set (w_archs w) 0 a2))); [reflexivity|reflexivity|]. apply (GraphInv_set w 0 a0 a2 Hg Ha0). unfold a2. rewrite pushed_eq. repeat split. }
  split; [|split; [exact Hknew|split; [|split; [exact Hkold|reflexivity]]]].
  - intros c. rewrite (abs_of_row w' 0 a2 _ k [] c Hst' Hnew Hnrow).
    unfold row_col. destruct (col_index (a_comps a2) c) as [i|]; [|reflexivity]. now destruct (i =? 0).
  - intros e c Hne. apply abs_kept; [exact Hst|exact Hst'| |intros X; exact (eq_trans (Hkold e Hne) X)].
    intros aj b rj vb Hb Hn. destruct (push_keeps k _ 0 a0 a2 [] Ha0 Hc2 (pushed_rows a0 _) aj b rj _ Hb Hn) as (b' & Hb').
    exists aj, b', rj. exact Hb'.
Qed.

Lemma spawn_one_ok w k m0 :
  WInv w -> insert_with (fun _ => (0, 0)) (w_ents w) = Some (k, m0) ->
  exists loc w1 ents', arch_spawn w k = (loc, w1) /\ insert_with (fun _ => loc) (w_ents w1) = Some (k, ents') /\
    WInv (set_ents w1 ents') /\
    (forall c, abs (set_ents w1 ents') k c = None) /\ sm_get k (w_ents (set_ents w1 ents')) = Some loc /\
    (forall e c, e <> k -> abs (set_ents w1 ents') e c = abs w e c) /\
    (forall e, e <> k -> sm_get e (w_ents (set_ents w1 ents')) = sm_get e (w_ents w)) /\
    w_aby (set_ents w1 ents') = w_aby w.
Proof.
  intros HW Hins. destruct (insert_key_indep _ (fun _ => spawn_loc w) _ _ _ Hins) as (ents' & Hins').
  exists (spawn_loc w), (snd (arch_spawn w k)), ents'. split; [now rewrite <- (arch_spawn_loc w k), <- surjective_pairing|]. rewrite arch_spawn_ents.
  exact (conj Hins' (spawn_one_loc w k ents' HW Hins')).
Qed.

(* [w'] extends [w] by freshly spawned, component-less entities *)
Definition ext_by_spawn (w w' : world) : Prop :=
  WInv w' /\
  (forall e, sm_get e (w_ents w) <> None -> sm_get e (w_ents w') = sm_get e (w_ents w) /\ forall c, abs w' e c = abs w e c) /\
  (forall e, sm_get e (w_ents w) = None -> forall c, abs w' e c = None) /\
  w_aby w' = w_aby w.

Lemma ext_by_spawn_refl w : WInv w -> ext_by_spawn w w.
Proof. intros H. split; [exact H|]. split; [auto|]. split; [|reflexivity]. intros e He c. now apply abs_dead. Qed.

Lemma ext_by_spawn_trans w1 w2 w3 : ext_by_spawn w1 w2 -> ext_by_spawn w2 w3 -> ext_by_spawn w1 w3.
Proof.
  intros (_ & Hl1 & Hd1 & Hb1) (HW & Hl2 & Hd2 & Hb2). split; [exact HW|]. split; [|split; [|congruence]].
  - intros e He. destruct (Hl1 e He) as [Hs1 Ha1]. assert (He2 : sm_get e (w_ents w2) <> None) by (rewrite Hs1; exact He).
    destruct (Hl2 e He2) as [Hs2 Ha2]. split; [congruence|]. intros c. now rewrite Ha2.
  - intros e He c. destruct (sm_get e (w_ents w2)) as [l|] eqn:E2.
    + assert (He2 : sm_get e (w_ents w2) <> None) by congruence. destruct (Hl2 e He2) as [_ Ha2]. rewrite Ha2. now apply Hd1.
    + now apply Hd2.
Qed.

Lemma WInv_ext w w' : w_ents w' = w_ents w -> w_archs w' = w_archs w -> w_aby w' = w_aby w -> WInv w -> WInv w'.
Proof.
  intros He Ha Hb (Hs & Hg & H0). split; [eapply StoreInv_ext; eauto|]. split; [eapply GraphInv_ext; eauto|].
  unfold aby_lookup in *. now rewrite Hb.
Qed.

Lemma ext_by_spawn_ext w w1 w2 : w_ents w2 = w_ents w1 -> w_archs w2 = w_archs w1 -> w_aby w2 = w_aby w1 ->
  ext_by_spawn w w1 -> ext_by_spawn w w2.
Proof.
  intros He Ha Hb (HW & Hl & Hd & Hby). split; [eapply WInv_ext; eauto|]. split; [|split; [|congruence]].
  - intros e Hlive. destruct (Hl e Hlive) as [H1 H2]. split; [now rewrite He|]. intros c. rewrite (abs_ext w1 w2 He Ha). apply H2.
  - intros e Hdead c. rewrite (abs_ext w1 w2 He Ha). now apply Hd.
Qed.

Lemma spawn_one_ext w k ents' : WInv w -> insert_with (fun _ => spawn_loc w) (w_ents w) = Some (k, ents') ->
  let w' := set_ents (snd (arch_spawn w k)) ents' in
  ext_by_spawn w w' /\ (forall c, abs w' k c = None) /\ sm_get k ents' <> None.
Proof.
  intros HW Ei. destruct (spawn_one_loc w k ents' HW Ei) as (HW' & Hnew & Hget & Hoth & Hoth' & Hby).
  assert (Hfresh : sm_get k (w_ents w) = None) by (destruct HW as ((Hsm & _) & _); exact (insert_get_fresh _ _ _ _ Hsm Ei)).
  split; [|split; [exact Hnew|congruence]]. split; [exact HW'|]. split; [|split; [|exact Hby]].
  - intros e He. assert (e <> k) by (intros ->; congruence). split; [now apply Hoth'|]. intros c. now apply Hoth.
  - intros e He c. destruct (key_eq_dec e k) as [->|Hne]; [apply Hnew|]. rewrite Hoth by exact Hne. now apply abs_dead.
Qed.

(* ReservedEntities::spawn_all: every materialised reservation is a new component-less entity; nothing
   that existed changes; the only failure is the exhaustion of the 2^32-1 slots *)
Lemma spawn_all_n_ok n : forall w, WInv w ->
  match spawn_all_n n w with
  | ROk _ w' => ext_by_spawn w w'
  | RFail f w' => f = FPanic 5 /\ ext_by_spawn w w'
  end.
Proof.
  intros w HW.
  pose proof (spawn_all_n_rule (ext_by_spawn w) (fun w1 k ents' Ei H1 => ext_by_spawn_trans _ _ _ H1 (proj1 (spawn_one_ext w1 k ents' (proj1 H1) Ei))) n w (ext_by_spawn_refl w HW)) as H.
  destruct (spawn_all_n n w) as [[] w'|f w']; [exact H|exact (conj (proj1 H) (proj1 (proj2 H)))].
Qed.

Theorem spawn_all_ok w : WInv w ->
  match spawn_all w with
  | ROk _ w' => ext_by_spawn w w'
  | RFail f w' => f = FPanic 5 /\ ext_by_spawn w w'
  end.
Proof.
  intros HW. unfold spawn_all. pose proof (spawn_all_n_ok (N.to_nat (w_rcnt w)) w HW) as H.
  destruct (spawn_all_n (N.to_nat (w_rcnt w)) w) as [[] w1|f w1]; cbn [rbind]; [|exact H].
  eapply ext_by_spawn_ext; [| | |exact H]; reflexivity.
Qed.

(* the Despawn effect (world.rs:1147-1169 after F2): reservations are materialised first, then the
   target's row is removed.  On a consistent world it cannot hit an unchecked failure; afterwards the
   world is consistent, the target is gone, and every other entity that existed keeps every component. *)
Theorem despawn_effect_ok w e loc :
  WInv w -> sm_get e (w_ents w) = Some loc ->
  match (do (_, w2) <- spawn_all w; do (_, w3) <- remove_entity w2 loc; ROk tt (refresh_cursor w3)) with
  | ROk _ w' => WInv w' /\ sm_get e (w_ents w') = None /\
                (forall k, k <> e -> sm_get k (w_ents w) <> None -> sm_get k (w_ents w') <> None /\ forall c, abs w' k c = abs w k c) /\
                (forall k, k <> e -> sm_get k (w_ents w) = None -> forall c, abs w' k c = None) /\
                w_aby w' = w_aby w
  | RFail f w' => f = FPanic 5 /\ ext_by_spawn w w'
  end.
Proof.
  intros HW He. pose proof (spawn_all_ok w HW) as Hsp. destruct (spawn_all w) as [[] w2|f w2]; cbn [rbind]; [|exact Hsp].
  destruct Hsp as (HW2 & Hl2 & Hd2 & Hb2). pose proof HW2 as (Hst2 & Hg2 & H02).
  assert (Hlive : sm_get e (w_ents w) <> None) by congruence. destruct (Hl2 e Hlive) as [He2 Habs2]. rewrite He in He2.
  destruct loc as [ai row]. pose proof Hst2 as (_ & Hlk & _). destruct (Hlk _ _ _ He2) as (a & vals & Ha & Hrow).
  destruct (remove_entity_ok_full w2 ai row a e vals Hst2 Ha Hrow) as (w3 & -> & Hst3 & Hgone & Hoth & Harchs & Haby & Hdead & Hstay).
  cbn [rbind]. unfold refresh_cursor.
  assert (HW3 : WInv w3).
  { split; [exact Hst3|]. split.
    - eapply (GraphInv_ext (set_archs w2 (slab_set (w_archs w2) ai (set_rows a (swap_remove (a_rows a) row))))); [exact Harchs|exact Haby|].
      eapply GraphInv_set; [exact Hg2|exact Ha|repeat split].
    - unfold aby_lookup in *. now rewrite Haby. }
  split; [eapply WInv_ext; [| | |exact HW3]; reflexivity|]. cbn [w_ents set_res].
  split; [exact Hgone|]. split; [|split].
  - intros k Hne Hk. destruct (Hl2 k Hk) as [Hk2 Hka2]. split.
    + apply Hstay; [exact Hne|]. now rewrite Hk2.
    + intros c. rewrite (abs_ext w3 (set_res w3 _ _)) by reflexivity. rewrite Hoth by exact Hne. apply Hka2.
  - intros k Hne Hk c. rewrite (abs_ext w3 (set_res w3 _ _)) by reflexivity. rewrite Hoth by exact Hne. now apply Hd2.
  - cbn [w_aby set_res]. congruence.
Qed.
