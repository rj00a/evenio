(* C17 - Archetype bookkeeping stays consistent at every quiescent point.  (partial)
   The property's list is evaluated directly on the implementation's snapshot after every
   top-level call by the check (independent audit) and the snapshot is compared with the model
   state field by field.  Proved on the model: the storage / graph / registry invariant FInv
   holds in every world reachable through ALL top-level calls of the driver, for every handler
   behaviour (last theorem); cached transitions after a type removal (the part that was false on
   the pinned tree); the listener tables: in every reachable world they name exactly the live
   handlers whose filter matches (AI = FInv /\ HL, Listen.v).  Not covered: "no reservation or
   queued event left pending" (decided by the audit and the correspondence on every run). *)
From Coq Require Import List NArith Bool.
Require Import EV.Base EV.Access EV.HList EV.World EV.ArchProofs.

Theorem c17_partial_no_stale_transition_after_type_removal :
  forall (w : world) (cidx ctag : N) (member_of : list N) (ai : N) (a : arch),
    slab_get (w_archs (archs_remove_component w cidx ctag member_of)) ai = Some a ->
    alookup cidx (a_ins a) = None /\ alookup cidx (a_rem a) = None.
Proof. exact no_transition_mentions_removed_component. Qed.
Print Assumptions c17_partial_no_stale_transition_after_type_removal.

Theorem c17_partial_listener_tables_follow_filters :
  forall (ai : N) (a : arch) (h : hinfo) (ek : key),
    h_recv h = RvTargeted ek ->
    forall x, In x (listeners_of (fst (register_handler ai a h)) (fst ek)) <->
              (x = h_key h /\ ca_matches (arch_has a) (h_filter h) = true) \/ In x (listeners_of a (fst ek)).
Proof. exact register_handler_listens. Qed.
Print Assumptions c17_partial_listener_tables_follow_filters.

Require Import EV.Query EV.SlotMap EV.Store.

(* the storage part of the invariant (entity locations <-> archetype rows, one value per column,
   slot-map invariant) holds in the empty world and is preserved by row removal and by the
   archetype move, which therefore never take an unchecked step that fails *)
Theorem c17_partial_storage_invariant_initially :
  forall fuel p : N, StoreInv (world0 fuel p).
Proof. exact StoreInv_world0. Qed.
Print Assumptions c17_partial_storage_invariant_initially.

Theorem c17_partial_row_removal_keeps_storage_consistent :
  forall (w : world) (ai row : N) (a : arch) (e : key) (vals : list cval),
    StoreInv w -> arch_at w ai = Some a -> nget (a_rows a) row = Some (e, vals) ->
    exists w', remove_entity w (ai, row) = ROk tt w' /\ StoreInv w' /\
               sm_get e (w_ents w') = None /\ (forall k c, k <> e -> abs w' k c = abs w k c).
Proof. exact remove_entity_ok. Qed.
Print Assumptions c17_partial_row_removal_keeps_storage_consistent.

Theorem c17_partial_archetype_move_keeps_storage_consistent :
  forall (w : world) (sai srow dst : N) (sa da : arch) (e : key) (vals : list cval) (nw : option (N * cval))
         (dvals : list cval) (killed : list (N * cval)),
    StoreInv w -> arch_at w sai = Some sa -> arch_at w dst = Some da -> sai <> dst ->
    nget (a_rows sa) srow = Some (e, vals) ->
    merge_row (S (length (a_comps sa) + length (a_comps da))) (a_comps sa) vals (a_comps da) nw = Some (dvals, killed) ->
    exists w', move_entity w (sai, srow) dst nw = ROk tt w' /\ StoreInv w' /\
               (forall k c, k <> e -> abs w' k c = abs w k c) /\
               (forall c, abs w' e c = row_col da dvals c).
Proof. exact move_entity_ok_core. Qed.
Print Assumptions c17_partial_archetype_move_keeps_storage_consistent.

Require Import EV.Loop EV.Graph EV.Effects EV.Reach.

(* the graph part: transitions, by_components, slab free list, sorted component lists *)
Theorem c17_partial_insert_transition_is_correct :
  forall (w : world) (src : N) (sa : arch) (c : N),
    StoreInv w -> GraphInv w -> arch_at w src = Some sa ->
    exists d w1, traverse_insert w src c = ROk d w1 /\ StoreInv w1 /\ GraphInv w1 /\
      (forall e k, abs w1 e k = abs w e k) /\ w_ents w1 = w_ents w /\
      (exists sa1, arch_at w1 src = Some sa1 /\ a_comps sa1 = a_comps sa /\ a_rows sa1 = a_rows sa) /\
      (In c (a_comps sa) -> d = src) /\
      (~ In c (a_comps sa) -> d <> src /\ exists da, arch_at w1 d = Some da /\ a_comps da = sorted_insert c (a_comps sa)) /\
      (forall cs ai, aby_lookup w cs = Some ai -> aby_lookup w1 cs = Some ai).
Proof. exact traverse_insert_ok. Qed.
Print Assumptions c17_partial_insert_transition_is_correct.

(* one delivery and a whole flush keep the invariant, whatever the handlers do *)
Theorem c17_flush_keeps_the_invariant :
  forall (beh : hinfo -> logent -> N -> script) (n : nat) (q : list qitem) (w : world) tr (s' : wst) oc,
    Loop.flush wst qitem (run_w beh) unwind_w n q (w, None) nil = Some (tr, s', oc) ->
    WInv w -> GevKinds w -> WInv (fst s') /\ GevKinds (fst s').
Proof. exact flush_WInv. Qed.
Print Assumptions c17_flush_keeps_the_invariant.

(* every world reachable from World::new by spawn / insert / remove / despawn / send / send_to /
   add_handler / remove_handler / add_component / add and remove events, with any handler bodies,
   any panic schedule and any fuel, is consistent:
     RInv w  =  StoreInv w  (entity map <-> rows, one value per column, slot-map invariant)
             /\ GraphInv w (slab chain, by_components <-> live archetypes, insert/remove
                            transitions lead to the archetype differing by the label, sorted lists)
             /\ the empty archetype is archetype 0  /\ global events carry no targeted meaning *)
Theorem c17_every_reachable_world_is_consistent :
  forall (beh : hinfo -> logent -> N -> script) (fuel p : N) (ops : list top),
    RInv (fold_left (run_top beh) ops (world0 fuel p)).
Proof. exact reachable_RInv. Qed.
Print Assumptions c17_every_reachable_world_is_consistent.

Require Import EV.RemoveComp EV.Member.

(* the full statement, including World::remove_component:
     FInv w = RInv w (above)
           /\ KInv w : member_of of every live component lists, without repetition, exactly the live
                       archetypes that have it; archetypes mention live components only; every targeted
                       Insert/Remove event is about a live component and recorded in its event lists;
                       the by-type map names live components carrying that type *)
Theorem c17_every_reachable_world_is_consistent_all_calls :
  forall (beh : hinfo -> logent -> N -> script) (fuel p : N) (ops : list top_all),
    FInv (fold_left (run_top_all beh) ops (world0 fuel p)).
Proof. exact reachable_FInv. Qed.
Print Assumptions c17_every_reachable_world_is_consistent_all_calls.

Require Import EV.Listen.

(* ... and the per-archetype listener tables and global listener lists name, without repetition,
   exactly the live handlers whose receiver has that event index (and whose filter matches the
   archetype); the handler registry is coherent (HL = HInv /\ LInv) *)
Theorem c17_listener_tables_are_exact_in_every_reachable_world :
  forall (beh : hinfo -> logent -> N -> script) (fuel p : N) (ops : list top_all),
    AI (fold_left (run_top_all beh) ops (world0 fuel p)).
Proof. exact reachable_AI. Qed.
Print Assumptions c17_listener_tables_are_exact_in_every_reachable_world.
