(* C01 - The safe API never causes undefined behaviour or undocumented panics.  (partial)
   In the model every unchecked operation of the implementation is a checked operation that
   yields [FUB site].  Proved here: the unchecked steps of move_entity's column walk cannot be
   reached with a missing or mismatching value.  The remaining sites are covered by the
   correspondence only (debug builds abort on violated unsafe preconditions). *)
From Coq Require Import List NArith Bool Sorted.
Require Import EV.Base EV.Query EV.World EV.ArchProofs.
Open Scope N_scope.

(* insertion: destination = source plus the new component *)
Theorem c01_partial_insert_walk_never_reads_a_missing_value :
  forall (sc : list N) (sv : list cval) (c : N) (v : cval) (fuel : nat),
    length sv = length sc -> ~ In c sc -> (length sc + length sc + 1 < fuel)%nat ->
    merge_row fuel sc sv (sorted_insert c sc) (Some (c, v)) <> None.
Proof. exact merge_row_insert_succeeds. Qed.
Print Assumptions c01_partial_insert_walk_never_reads_a_missing_value.

(* removal: destination = source minus the removed component, columns sorted *)
Theorem c01_partial_remove_walk_never_reads_a_missing_value :
  forall (sc : list N) (sv : list cval) (c : N) (fuel : nat),
    length sv = length sc -> StronglySorted N.lt sc -> (length sc + length sc + 1 < fuel)%nat ->
    merge_row fuel sc sv (filter (fun x => negb (x =? c)) sc) None <> None.
Proof. exact merge_row_remove_succeeds. Qed.
Print Assumptions c01_partial_remove_walk_never_reads_a_missing_value.

Require Import EV.SlotMap EV.Loop EV.Store EV.Graph EV.Effects EV.Reach.

(* on a consistent world none of the unchecked storage operations behind Insert / Remove / Spawn /
   Despawn (archetype.rs: get_unchecked, unwrap_unchecked, assume_unchecked, column pointer
   arithmetic; the model's FUB sites 220-532) can fail: the effect either succeeds or panics with
   the documented "too many entities" capacity failure, and the world stays consistent *)
Theorem c01_builtin_effects_hit_no_unchecked_failure :
  forall (kind : ekind) (ev : evv) (loc : eloc) (w : world) (e : key),
    WInv w -> (targeted_kind kind = true -> sm_get e (w_ents w) = Some loc) ->
    match builtin_effect kind ev loc w with
    | ROk _ w' => WInv w'
    | RFail f w' => f = FPanic 5 /\ WInv w'
    end.
Proof. exact builtin_effect_ok. Qed.
Print Assumptions c01_builtin_effects_hit_no_unchecked_failure.

(* and that consistency is available at every delivery of every flush started from a reachable
   world, for every handler behaviour *)
Theorem c01_consistency_holds_after_every_delivery :
  forall (beh : hinfo -> logent -> N -> script) (it : qitem) (w : world),
    WInv w -> GevKinds w -> WInv (snd (fst (deliver_one beh it w))).
Proof. exact deliver_one_WInv. Qed.
Print Assumptions c01_consistency_holds_after_every_delivery.

Theorem c01_reachable_worlds_are_consistent :
  forall (beh : hinfo -> logent -> N -> script) (fuel p : N) (ops : list top),
    RInv (fold_left (run_top beh) ops (world0 fuel p)).
Proof. exact reachable_RInv. Qed.
Print Assumptions c01_reachable_worlds_are_consistent.

Require Import EV.Member.
Theorem c01_reachable_worlds_are_consistent_all_calls :
  forall (beh : hinfo -> logent -> N -> script) (fuel p : N) (ops : list top_all),
    FInv (fold_left (run_top_all beh) ops (world0 fuel p)).
Proof. exact reachable_FInv. Qed.
Print Assumptions c01_reachable_worlds_are_consistent_all_calls.

Require Import EV.Fetch EV.NoUB.

(* evaluating a handler's parameters (HandlerParam::get of every parameter: Fetcher / Single views with
   their random-access probes, the targeted receiver's item) on a world with a consistent store and
   exact caches never reaches an unchecked failure - no stale cache entry, freed archetype, wrong
   column or missing row; the only failure left is the documented Single panic *)
Theorem c01_parameter_evaluation_hits_no_unchecked_failure :
  forall (w : world) (ps : list rparam) (loc : eloc),
    StoreInv w -> params_ready w ps loc -> ~ is_ub (param_views w ps loc).
Proof. exact param_views_ok. Qed.
Print Assumptions c01_parameter_evaluation_hits_no_unchecked_failure.

(* every world reachable by any sequence of calls (with any handler behaviour) satisfies all the
   invariants DI and the static handler invariant SInv (a handler's filter implies each of its
   targeted-receiver queries; a handler of a global event has no targeted receiver) *)
Theorem c01_reachable_worlds_satisfy_all_invariants :
  forall (beh : hinfo -> logent -> N -> script) (fuel p : N) (ops : list top_all),
    EI (fold_left (run_top_all beh) ops (world0 fuel p)).
Proof. exact reachable_EI. Qed.
Print Assumptions c01_reachable_worlds_satisfy_all_invariants.

(* one whole delivery on such a world: once the queued item's event kind is found in the registry,
   nothing in it - archetype look-up, parameter evaluation of every handler that runs (also after
   earlier handlers of the same delivery wrote through their views), handler actions, the built-in
   effect - reaches an unchecked failure *)
Theorem c01_a_delivery_hits_no_unchecked_failure :
  forall (beh : hinfo -> logent -> N -> script) (it : qitem) (w : world),
    DI w -> SInv w ->
    (if qi_targeted it then get_by_index (w_tev w) (qi_idx it) <> None
     else get_by_index (w_gev w) (qi_idx it) <> None /\ nget (w_glists w) (qi_idx it) <> None) ->
    ~ ubf (snd (deliver_one beh it w)).
Proof. exact deliver_one_no_ub. Qed.
Print Assumptions c01_a_delivery_hits_no_unchecked_failure.

Require Import EV.Sender.
(* every world reachable by any sequence of calls satisfies, besides all the invariants above, the
   registry invariants: by-type maps point at live events, every live global event has a listener
   list, and every event a live handler's Sender can produce is registered *)
Theorem c01_reachable_worlds_satisfy_registry_invariants :
  forall (beh : hinfo -> logent -> N -> script) (fuel p : N) (ops : list top_all),
    ZI (fold_left (run_top_all beh) ops (world0 fuel p)).
Proof. exact reachable_ZI. Qed.
Print Assumptions c01_reachable_worlds_satisfy_registry_invariants.

(* whatever calls were made before, with whatever handler behaviour, the next call - spawn, insert,
   remove, despawn, send, send_to, add/remove handler, add/remove component or event - does not reach
   an unchecked failure anywhere (no stale location, freed archetype, unregistered event, missing
   listener list, stale cache entry, wrong column or row): it returns normally or with a documented panic *)
Theorem c01_no_call_on_a_reachable_world_fails_unchecked :
  forall (beh : hinfo -> logent -> N -> script) (fuel p : N) (ops : list top_all) (o : top_all),
    ~ ubf (snd (run_top_res beh (fold_left (run_top_all beh) ops (world0 fuel p)) o)).
Proof. exact no_call_fails_unchecked. Qed.
Print Assumptions c01_no_call_on_a_reachable_world_fails_unchecked.

(* World::get on a reachable world never indexes out of bounds *)
Theorem c01_get_on_a_reachable_world_is_checked :
  forall (beh : hinfo -> logent -> N -> script) (fuel p : N) (ops : list top_all) (e : key) (ktag : N),
    ~ is_ub (op_get e ktag (fold_left (run_top_all beh) ops (world0 fuel p))).
Proof. exact reachable_get_ok. Qed.
Print Assumptions c01_get_on_a_reachable_world_is_checked.

(* ---------- the unchecked operations of src/sparse_map.rs (get_unchecked*, assume_unchecked) ---------- *)
Require Import EV.SparseMap.
(* each is a UB site of coq/SparseMap.v; under the invariant - which holds after every operation sequence from the
   empty map - insert, remove and get return a value (or the documented panic for K::MAX as key), never UB *)
Theorem c01_sparse_map_never_reaches_an_unchecked_failure :
  forall (V : Type) (m : spm V), SpInv m ->
    (forall k, sp_get m k = Val (sp_abs m k)) /\
    (forall k v, k <> U32MAX -> (nlen (sp_dense m) + 1 < U32MAX)%N -> exists m', sp_insert m k v = Val (sp_abs m k, m') /\ SpInv m') /\
    (forall k, exists m', sp_remove m k = Val (sp_abs m k, m') /\ SpInv m') /\
    SpInv (sp_shrink m).
Proof. exact @sp_never_ub. Qed.
Print Assumptions c01_sparse_map_never_reaches_an_unchecked_failure.
