(* Graph.v : the archetype-graph part of the invariant (C17) and the specification of
   traverse_insert / traverse_remove.
     - archetype slab: the free list is a chain of vacant entries ending one past the end;
     - by_components maps every live archetype's component list back to its index;
     - every cached transition leads to a live archetype that differs by exactly the label.  *)
From Coq Require Import List NArith Bool Lia Sorted.
Import ListNotations.
Require Import EV.Base EV.ListN EV.Access EV.Query EV.SlotMap EV.Reserve EV.HList EV.Loop EV.World EV.SlotMapGet EV.ArchProofs EV.WorldFrame EV.Store EV.Register.
Open Scope N_scope.

(* slab 0.4: LIFO free list threaded through vacant entries *)
Inductive schain (l : list sentry) : N -> list N -> Prop :=
| sch_end : schain l (nlen l) []
| sch_cons i nx rest : nget l i = Some (SVac nx) -> schain l nx rest -> schain l i (i :: rest).
Definition SlabInv (s : slab) : Prop := exists c, schain (sl_entries s) (sl_next s) c /\ NoDup c.

Lemma schain_vac l h c : schain l h c -> forall i, In i c -> exists nx, nget l i = Some (SVac nx).
Proof. induction 1 as [|i nx rest Hg _ IH]; intros j Hj; [destruct Hj|]. destruct Hj as [<-|Hj]; eauto. Qed.
Lemma schain_nset_notin l i x : forall h c, schain l h c -> ~ In i c -> schain (nset l i x) h c.
Proof.
  intros h c H. induction H as [|j nx rest Hg Hc IH]; intros Hin.
  - rewrite <- (nlen_nset l i x). constructor.
  - econstructor; [rewrite nget_nset_neq; [exact Hg|]|apply IH]; intros X; apply Hin; [subst; now left|now right].
Qed.
Lemma schain_head_end l c : schain l (nlen l) c -> c = [].
Proof. intros H. inversion H as [|i nx rest Hg Hc]; [reflexivity|]. subst. apply nget_some_lt in Hg. lia. Qed.
Lemma schain_head_lt l h c x : schain l h c -> nget l h = Some x -> exists nx rest, x = SVac nx /\ c = h :: rest /\ schain l nx rest.
Proof. intros H Hx. inversion H as [|i nx rest Hg Hc]; subst; [apply nget_some_lt in Hx; lia|]. rewrite Hg in Hx. inversion Hx. eauto. Qed.
Lemma schain_head_cases l h c : schain l h c -> h = nlen l \/ exists nx, nget l h = Some (SVac nx).
Proof. intros H. inversion H; subst; eauto. Qed.

(* what insertion does: the new archetype sits at the key that was announced, everything else
   stays, the free list stays a chain *)
Lemma slab_insert_spec s a : SlabInv s ->
  slab_get (slab_insert s a) (slab_vacant_key s) = Some a /\
  slab_get s (slab_vacant_key s) = None /\
  (forall j, j <> slab_vacant_key s -> slab_get (slab_insert s a) j = slab_get s j) /\
  SlabInv (slab_insert s a).
Proof.
  intros (c & Hc & Hnd). unfold slab_insert, slab_vacant_key, slab_get.
  destruct (schain_head_cases _ _ _ Hc) as [E|(nx & Hv)].
  - rewrite E, N.eqb_refl. cbn [sl_entries sl_next]. rewrite nget_snoc_last. split; [reflexivity|].
    rewrite (nget_ge_none (sl_entries s) (nlen (sl_entries s))) by lia. split; [reflexivity|]. split.
    + intros j Hj. destruct (N.lt_ge_cases j (nlen (sl_entries s))) as [L|G]; [now rewrite nget_app_l|].
      rewrite nget_app_r by exact G. rewrite (nget_ge_none _ j G).
      destruct (j - nlen (sl_entries s) =? 0) eqn:Z; [apply N.eqb_eq in Z; lia|]. cbn [nget]. now rewrite Z.
    + exists []. split; [|constructor]. cbn [sl_entries sl_next]. rewrite <- (N.add_comm 1), N.add_comm.
      replace (nlen (sl_entries s) + 1) with (nlen (sl_entries s ++ [SOcc a])) by (rewrite nlen_app; reflexivity). constructor.
  - assert (Hlt : sl_next s < nlen (sl_entries s)) by (eapply nget_some_lt; eauto).
    replace (sl_next s =? nlen (sl_entries s)) with false by (symmetry; apply N.eqb_neq; lia). rewrite Hv.
    cbn [sl_entries sl_next]. rewrite nget_nset_eq by exact Hlt. split; [reflexivity|]. split; [reflexivity|]. split.
    + intros j Hj. now rewrite nget_nset_neq by auto.
    + destruct (schain_head_lt _ _ _ _ Hc Hv) as (nx' & rest & E & -> & Hrest). inversion E; subst nx'. inversion Hnd; subst.
      exists rest. split; [apply schain_nset_notin; assumption|assumption].
Qed.

Lemma slab_remove_spec s i a : SlabInv s -> slab_get s i = Some a ->
  slab_get (slab_remove s i) i = None /\ (forall j, j <> i -> slab_get (slab_remove s i) j = slab_get s j) /\ SlabInv (slab_remove s i).
Proof.
  intros (c & Hc & Hnd) Ha. unfold slab_remove, slab_get in *. cbn [sl_entries sl_next].
  destruct (nget (sl_entries s) i) as [[a0|n]|] eqn:E; try discriminate.
  assert (Hlt : i < nlen (sl_entries s)) by (eapply nget_some_lt; eauto).
  rewrite nget_nset_eq by exact Hlt. split; [reflexivity|]. split; [intros j Hj; now rewrite nget_nset_neq by auto|].
  assert (Hnotin : ~ In i c). { intros Hin. destruct (schain_vac _ _ _ Hc _ Hin) as (nx & Hv). congruence. }
  exists (i :: c). split; [|constructor; assumption].
  econstructor; [apply nget_nset_eq; exact Hlt|apply schain_nset_notin; assumption].
Qed.

Lemma slab_set_inv s i a0 a : SlabInv s -> slab_get s i = Some a0 -> SlabInv (slab_set s i a).
Proof.
  intros (c & Hc & Hnd) Ha. exists c. split; [|exact Hnd]. unfold slab_set. cbn [sl_entries sl_next].
  apply schain_nset_notin; [exact Hc|]. intros Hin. destruct (schain_vac _ _ _ Hc _ Hin) as (nx & Hv).
  unfold slab_get in Ha. rewrite Hv in Ha. discriminate.
Qed.

Definition GraphInv (w : world) : Prop :=
  SlabInv (w_archs w) /\
  (* by_components <-> live archetypes *)
  (forall ai a, arch_at w ai = Some a -> aby_lookup w (a_comps a) = Some ai) /\
  (forall cs ai, aby_lookup w cs = Some ai -> exists a, arch_at w ai = Some a /\ a_comps a = cs) /\
  (* cached transitions *)
  (forall ai a c d, arch_at w ai = Some a -> alookup c (a_ins a) = Some d ->
     ~ In c (a_comps a) /\ exists b, arch_at w d = Some b /\ a_comps b = sorted_insert c (a_comps a)) /\
  (forall ai a c d, arch_at w ai = Some a -> alookup c (a_rem a) = Some d ->
     In c (a_comps a) /\ exists b, arch_at w d = Some b /\ a_comps b = filter (fun x => negb (x =? c)) (a_comps a)) /\
  (* component lists are strictly sorted *)
  (forall ai a, arch_at w ai = Some a -> StronglySorted N.lt (a_comps a)).

Definition same_core (a b : arch) : Prop :=
  a_comps a = a_comps b /\ a_rows a = a_rows b /\ a_ins a = a_ins b /\ a_rem a = a_rem b /\ a_cap a = a_cap b.
Lemma same_core_refl a : same_core a a. Proof. repeat split. Qed.
Lemma register_handler_core ai a h : same_core (fst (register_handler ai a h)) a.
Proof. rewrite register_handler_fst. repeat split. Qed.

Lemma create_arch_spec w cs ins rem :
  exists a1, same_core a1 (mkA (w_auid w) cs [] 0 0 ins rem [] []) /\
    fst (create_arch w cs ins rem) = slab_vacant_key (w_archs w) /\
    w_archs (snd (create_arch w cs ins rem)) = slab_insert (w_archs w) a1 /\
    w_ents (snd (create_arch w cs ins rem)) = w_ents w /\
    w_aby (snd (create_arch w cs ins rem)) = w_aby w ++ [(cs, slab_vacant_key (w_archs w))].
Proof.
  rewrite create_arch_eq. eexists. split; [|repeat split]. rewrite regs_a_tables. repeat split.
Qed.

(* the archetypes after Archetype::new: the vacant key holds the new one, registered with every handler *)
Lemma create_arch_at w cs ins rem : SlabInv (w_archs w) ->
  arch_at w (slab_vacant_key (w_archs w)) = None /\
  forall j, arch_at (snd (create_arch w cs ins rem)) j =
            if j =? slab_vacant_key (w_archs w) then Some (regs_a (w_hs w) (w_horder w) (mkA (w_auid w) cs [] 0 0 ins rem [] [])) else arch_at w j.
Proof.
  intros Hs. rewrite create_arch_eq. unfold arch_at. cbn [snd w_archs set_archs].
  destruct (slab_insert_spec (w_archs w) (regs_a (w_hs w) (w_horder w) (mkA (w_auid w) cs [] 0 0 ins rem [] [])) Hs) as (Hnew & Hvac & Hoth & _).
  split; [exact Hvac|]. intros j. destruct (N.eqb_spec j (slab_vacant_key (w_archs w))) as [->|Hne]; [exact Hnew|now apply Hoth].
Qed.

Lemma upd_arch_some w i a f : arch_at w i = Some a -> upd_arch w i f = set_archs w (slab_set (w_archs w) i (f a)).
Proof. unfold upd_arch, arch_at. now intros ->. Qed.

(* the archetype at one index is replaced, or an empty one is put where there was none: what depends on rows and
   components alone does not notice if these stay *)
Lemma StoreInv_at w w' i a' : StoreInv w -> w_ents w' = w_ents w ->
  (forall j, arch_at w' j = if j =? i then Some a' else arch_at w j) ->
  match arch_at w i with Some a => a_comps a' = a_comps a /\ a_rows a' = a_rows a | None => a_rows a' = [] end ->
  StoreInv w' /\ forall e c, abs w' e c = abs w e c.
Proof.
  intros (Hsm & Hl & Hr) He Hat Hi.
  assert (K1 : forall j b rj x, arch_at w j = Some b -> nget (a_rows b) rj = Some x ->
            exists b', arch_at w' j = Some b' /\ a_comps b' = a_comps b /\ nget (a_rows b') rj = Some x).
  { intros j b rj x Hb Hn. rewrite Hat. destruct (N.eqb_spec j i) as [->|_]; [|eauto]. rewrite Hb in Hi. destruct Hi as [Hc Hrw]. exists a'. rewrite Hrw. auto. }
  split.
  - unfold StoreInv. rewrite He. split; [exact Hsm|]. split.
    + intros e ai row Hg. destruct (Hl _ _ _ Hg) as (b & vb & Hb & Hn). destruct (K1 _ _ _ _ Hb Hn) as (b' & Hb' & _ & Hn'). eauto.
    + intros ai b' row e vals Hb' Hn'. rewrite Hat in Hb'. destruct (N.eqb_spec ai i) as [->|_]; [|eauto]. injection Hb' as <-.
      destruct (arch_at w i) as [a|] eqn:Ha; [|rewrite Hi in Hn'; discriminate]. destruct Hi as [Hc Hrw]. rewrite Hrw in Hn'. rewrite Hc. eauto.
  - intros e c. unfold abs. rewrite He. destruct (sm_get e (w_ents w)) as [[ai row]|] eqn:Hg; [|reflexivity].
    destruct (Hl _ _ _ Hg) as (b & vb & Hb & Hn). destruct (K1 _ _ _ _ Hb Hn) as (b' & Hb' & Hc & Hn'). rewrite Hb, Hb', Hn, Hn'. now apply row_col_comps.
Qed.
Lemma arch_at_set w i a a' : arch_at w i = Some a -> forall j, arch_at (set_archs w (slab_set (w_archs w) i a')) j = if j =? i then Some a' else arch_at w j.
Proof. intros Ha j. exact (slab_get_set _ i a a' j Ha). Qed.

Lemma sorted_insert_in c l x : In x (sorted_insert c l) <-> x = c \/ In x l.
Proof.
  induction l as [|h t IH]; cbn [sorted_insert].
  - split; [intros [<-|[]]; now left|intros [->|[]]; now left].
  - destruct (c <? h); cbn [In]; [split; [intros [<-|H]; auto|intros [->|H]; auto]|].
    rewrite IH. split; [intros [H|[H|H]]; auto|intros [H|[H|H]]; auto].
Qed.
Lemma arch_has_in a c : arch_has a c = true <-> In c (a_comps a).
Proof.
  unfold arch_has. rewrite existsb_exists. split.
  - intros (x & Hx & E). apply N.eqb_eq in E. now subst.
  - intros H. exists c. split; [exact H|apply N.eqb_refl].
Qed.
Lemma filter_notin_id c l : ~ In c l -> filter (fun x => negb (x =? c)) l = l.
Proof.
  induction l as [|h t IH]; intros Hn; [reflexivity|]. cbn [filter].
  destruct (N.eqb_spec h c) as [->|_]; [elim Hn; now left|]. cbn [negb]. f_equal. apply IH. intros X. apply Hn. now right.
Qed.
Lemma filter_sorted_insert c l : ~ In c l -> filter (fun x => negb (x =? c)) (sorted_insert c l) = l.
Proof.
  intros Hn. induction l as [|h t IH]; cbn [sorted_insert]; [cbn; now rewrite N.eqb_refl|]. destruct (c <? h); cbn [filter].
  - rewrite N.eqb_refl. exact (filter_notin_id c (h :: t) Hn).
  - destruct (N.eqb_spec h c) as [->|_]; [elim Hn; now left|]. cbn [negb]. f_equal. apply IH. intros X. apply Hn. now right.
Qed.
Lemma sorted_insert_sorted c l : StronglySorted N.lt l -> ~ In c l -> StronglySorted N.lt (sorted_insert c l).
Proof.
  induction l as [|h t IH]; intros Hs Hn; cbn; [repeat constructor|]. apply StronglySorted_inv in Hs as [Hs Hall].
  assert (h <> c) by (intros ->; apply Hn; now left). destruct (c <? h) eqn:E.
  - apply N.ltb_lt in E. constructor; [constructor; assumption|]. constructor; [exact E|]. rewrite Forall_forall in *. intros x Hx. specialize (Hall x Hx). lia.
  - apply N.ltb_ge in E. constructor; [apply IH; [exact Hs|intros X; apply Hn; now right]|]. rewrite Forall_forall in *. intros x Hx.
    apply sorted_insert_in in Hx as [->|Hx]; [lia|auto].
Qed.
Lemma sorted_insert_length c l : length (sorted_insert c l) = S (length l).
Proof. induction l as [|h t IH]; cbn; [reflexivity|]. destruct (c <? h); cbn; [reflexivity|now rewrite IH]. Qed.

Lemma list_eqb_N_spec (a b : list N) : list_eqb N.eqb a b = true <-> a = b.
Proof.
  revert b. induction a as [|x a IH]; intros [|y b]; cbn; split; try congruence; try discriminate; auto.
  - intros H. apply andb_true_iff in H as [H1 H2]. apply N.eqb_eq in H1. apply IH in H2. congruence.
  - intros H. inversion H; subst. rewrite N.eqb_refl. cbn. now apply IH.
Qed.
Lemma find_app {A} (p : A -> bool) l1 l2 : find p (l1 ++ l2) = match find p l1 with Some x => Some x | None => find p l2 end.
Proof. induction l1 as [|h t IH]; cbn; [reflexivity|]. destruct (p h); [reflexivity|exact IH]. Qed.

Lemma aby_lookup_snoc w0 x cs0 ai0 cs : w_aby x = w_aby w0 ++ [(cs0, ai0)] ->
  aby_lookup x cs = match aby_lookup w0 cs with Some ai => Some ai | None => if list_eqb N.eqb cs0 cs then Some ai0 else None end.
Proof.
  unfold aby_lookup. intros ->. rewrite find_app. destruct (find _ (w_aby w0)) as [p|]; [reflexivity|]. cbn [find fst snd].
  destruct (list_eqb N.eqb cs0 cs); reflexivity.
Qed.

Lemma abs_ext2 w w' : w_ents w' = w_ents w -> w_archs w' = w_archs w -> forall e c, abs w' e c = abs w e c.
Proof. apply abs_ext. Qed.
Lemma GraphInv_ext w w' : w_archs w' = w_archs w -> w_aby w' = w_aby w -> GraphInv w -> GraphInv w'.
Proof. unfold GraphInv, arch_at, aby_lookup. intros -> ->. auto. Qed.

(* the two clauses of GraphInv about one cached transition c -> d out of component list cs *)
Definition ins_ok (w : world) (cs : list N) (c d : N) : Prop :=
  ~ In c cs /\ exists b, arch_at w d = Some b /\ a_comps b = sorted_insert c cs.
Definition rem_ok (w : world) (cs : list N) (c d : N) : Prop :=
  In c cs /\ exists b, arch_at w d = Some b /\ a_comps b = filter (fun x => negb (x =? c)) cs.

Lemma edge_ok_mono w w' : (forall j b, arch_at w j = Some b -> exists b', arch_at w' j = Some b' /\ a_comps b' = a_comps b) ->
  forall cs c d, (ins_ok w cs c d -> ins_ok w' cs c d) /\ (rem_ok w cs c d -> rem_ok w' cs c d).
Proof.
  intros H cs c d.
  assert (Hd : forall cs', (exists b, arch_at w d = Some b /\ a_comps b = cs') -> exists b, arch_at w' d = Some b /\ a_comps b = cs').
  { intros cs' (b & Hb & Hc). destruct (H _ _ Hb) as (b' & Hb' & Hc'). exists b'. split; [exact Hb'|congruence]. }
  split; intros [Hn Hb]; (split; [exact Hn|exact (Hd _ Hb)]).
Qed.

Lemma GraphInv_set_gen w i a a' : GraphInv w -> arch_at w i = Some a -> a_comps a' = a_comps a ->
  (forall c d, alookup c (a_ins a') = Some d -> alookup c (a_ins a) = Some d \/ ins_ok w (a_comps a) c d) ->
  (forall c d, alookup c (a_rem a') = Some d -> alookup c (a_rem a) = Some d \/ rem_ok w (a_comps a) c d) ->
  GraphInv (set_archs w (slab_set (w_archs w) i a')).
Proof.
  intros (Hs & Hb1 & Hb2 & Hi & Hr & Hso) Ha Hc Hins Hrem. set (w' := set_archs w (slab_set (w_archs w) i a')).
  assert (Hat : forall j, arch_at w' j = if j =? i then Some a' else arch_at w j) by (intros j; exact (slab_get_set _ i a a' j Ha)).
  assert (Hbw : forall j b0, arch_at w j = Some b0 -> exists b, arch_at w' j = Some b /\ a_comps b = a_comps b0).
  { intros j b0 Hj. rewrite Hat. destruct (N.eqb_spec j i) as [->|_]; [|eauto]. rewrite Ha in Hj. injection Hj as <-. eauto. }
  pose proof (edge_ok_mono w w' Hbw) as Hmono.
  split; [exact (slab_set_inv _ i a a' Hs Ha)|]. split; [|split; [|split; [|split]]].
  - intros ai b Hb. rewrite Hat in Hb. destruct (N.eqb_spec ai i) as [->|_]; [|exact (Hb1 _ _ Hb)]. injection Hb as <-. rewrite Hc. exact (Hb1 _ _ Ha).
  - intros cs ai Hl. destruct (Hb2 cs ai Hl) as (b0 & Hb0 & C0). destruct (Hbw _ _ Hb0) as (b & Hb & C). exists b. split; [exact Hb|congruence].
  - intros ai b c d Hb He. apply Hmono. rewrite Hat in Hb. destruct (N.eqb_spec ai i) as [->|_]; [|exact (Hi _ _ _ _ Hb He)].
    injection Hb as <-. rewrite Hc. destruct (Hins c d He) as [He0|H]; [exact (Hi _ _ _ _ Ha He0)|exact H].
  - intros ai b c d Hb He. apply Hmono. rewrite Hat in Hb. destruct (N.eqb_spec ai i) as [->|_]; [|exact (Hr _ _ _ _ Hb He)].
    injection Hb as <-. rewrite Hc. destruct (Hrem c d He) as [He0|H]; [exact (Hr _ _ _ _ Ha He0)|exact H].
  - intros ai b Hb. rewrite Hat in Hb. destruct (N.eqb_spec ai i) as [->|_]; [|exact (Hso _ _ Hb)]. injection Hb as <-. rewrite Hc. exact (Hso _ _ Ha).
Qed.

Lemma create_arch_ok w cs ins rem : StoreInv w -> GraphInv w -> StronglySorted N.lt cs -> aby_lookup w cs = None ->
  (forall c d, alookup c ins = Some d -> ins_ok w cs c d) -> (forall c d, alookup c rem = Some d -> rem_ok w cs c d) ->
  let r := create_arch w cs ins rem in
  StoreInv (snd r) /\ GraphInv (snd r) /\ (forall e k, abs (snd r) e k = abs w e k) /\ w_ents (snd r) = w_ents w /\
  (forall j b, arch_at w j = Some b -> arch_at (snd r) j = Some b) /\
  (exists a1, arch_at (snd r) (fst r) = Some a1 /\ a_comps a1 = cs) /\
  (forall cs0 ai, aby_lookup w cs0 = Some ai -> aby_lookup (snd r) cs0 = Some ai).
Proof.
  intros Hst (Hs & Hb1 & Hb2 & Hi & Hr & Hso) Hsorted Hnone Hins Hrem. cbn zeta. destruct (create_arch_at w cs ins rem Hs) as [Hvac Hat]. revert Hat. rewrite create_arch_eq. cbn [fst snd]. intros Hat.
  set (d := slab_vacant_key (w_archs w)) in *. set (a1 := regs_a _ _ _) in *. set (w1 := set_archs _ _) in *.
  assert (E : a_comps a1 = cs /\ a_rows a1 = [] /\ a_ins a1 = ins /\ a_rem a1 = rem) by (unfold a1; rewrite regs_a_tables; auto). destruct E as (C1 & C2 & C3 & C4).
  destruct (StoreInv_at w w1 d a1 Hst eq_refl Hat) as [Hst1 Habs1]; [now rewrite Hvac|].
  assert (Hkeep : forall j b, arch_at w j = Some b -> arch_at w1 j = Some b).
  { intros j b Hj. rewrite Hat. destruct (N.eqb_spec j d) as [->|_]; [congruence|exact Hj]. }
  pose proof (aby_lookup_snoc w w1 cs d) as Hlook. specialize (fun cs' => Hlook cs' eq_refl).
  pose proof (edge_ok_mono w w1 (fun j b Hj => ex_intro _ b (conj (Hkeep j b Hj) eq_refl))) as Hmono.
  split; [exact Hst1|]. split; [|split; [exact Habs1|split; [reflexivity|split; [exact Hkeep|split]]]].
  - split; [exact (proj2 (proj2 (proj2 (slab_insert_spec (w_archs w) a1 Hs))))|]. split; [|split; [|split; [|split]]].
    + intros ai a Hai. rewrite Hat in Hai. rewrite Hlook. destruct (N.eqb_spec ai d) as [->|_]; [|now rewrite (Hb1 _ _ Hai)].
      injection Hai as <-. now rewrite C1, Hnone, (proj2 (list_eqb_N_spec cs cs) eq_refl).
    + intros cs' ai Hl. rewrite Hlook in Hl. destruct (aby_lookup w cs') as [ai0|] eqn:El.
      * injection Hl as ->. destruct (Hb2 _ _ El) as (a0 & Ha0 & Hc0). exists a0. split; [exact (Hkeep _ _ Ha0)|exact Hc0].
      * destruct (list_eqb N.eqb cs cs') eqn:Ec; [|discriminate]. injection Hl as <-. apply list_eqb_N_spec in Ec. subst cs'.
        exists a1. split; [rewrite Hat, N.eqb_refl; reflexivity|exact C1].
    + intros ai a c0 d0 Hai He. apply Hmono. rewrite Hat in Hai. destruct (N.eqb_spec ai d) as [->|_]; [|exact (Hi _ _ _ _ Hai He)].
      injection Hai as <-. rewrite C3 in He. rewrite C1. exact (Hins _ _ He).
    + intros ai a c0 d0 Hai He. apply Hmono. rewrite Hat in Hai. destruct (N.eqb_spec ai d) as [->|_]; [|exact (Hr _ _ _ _ Hai He)].
      injection Hai as <-. rewrite C4 in He. rewrite C1. exact (Hrem _ _ He).
    + intros ai a Hai. rewrite Hat in Hai. destruct (N.eqb_spec ai d) as [->|_]; [|exact (Hso _ _ Hai)]. injection Hai as <-. now rewrite C1.
  - exists a1. now rewrite Hat, N.eqb_refl.
  - intros cs0 ai X. rewrite Hlook, X. reflexivity.
Qed.

(* traverse_insert / traverse_remove past the cache: find or create the archetype with components [cs'],
   then record the transition at the source with [edge] *)
Section Traverse.
Variables (w : world) (src : N) (sa : arch) (cs' : list N) (ins rem : list (N * N)) (edge : N -> arch -> arch).
Hypothesis Hst : StoreInv w.
Hypothesis Hg : GraphInv w.
Hypothesis Ha : arch_at w src = Some sa.
Hypothesis Hsorted : StronglySorted N.lt cs'.
Hypothesis Hcs : cs' <> a_comps sa.
Hypothesis Hins : forall c d, alookup c ins = Some d -> ins_ok w cs' c d.
Hypothesis Hrem : forall c d, alookup c rem = Some d -> rem_ok w cs' c d.
Hypothesis Hshape : forall d, a_comps (edge d sa) = a_comps sa /\ a_rows (edge d sa) = a_rows sa.
Hypothesis Hedge : forall w' d db, GraphInv w' -> arch_at w' src = Some sa -> arch_at w' d = Some db -> a_comps db = cs' ->
  GraphInv (set_archs w' (slab_set (w_archs w') src (edge d sa))).

Lemma traverse_edge w' d db : StoreInv w' -> GraphInv w' -> arch_at w' src = Some sa -> arch_at w' d = Some db -> a_comps db = cs' ->
  let w1 := upd_arch w' src (edge d) in
  StoreInv w1 /\ GraphInv w1 /\ (forall e k, abs w1 e k = abs w' e k) /\ w_ents w1 = w_ents w' /\
  (exists sa1, arch_at w1 src = Some sa1 /\ a_comps sa1 = a_comps sa /\ a_rows sa1 = a_rows sa) /\
  (d <> src /\ exists da, arch_at w1 d = Some da /\ a_comps da = cs') /\
  (forall cs ai, aby_lookup w' cs = Some ai -> aby_lookup w1 cs = Some ai).
Proof using Hcs Hshape Hedge.
  intros Hst' Hg' Hsrc Hd Hdc. cbn zeta. rewrite (upd_arch_some _ _ _ _ Hsrc). pose proof (arch_at_set w' src sa (edge d sa) Hsrc) as Hat. set (w1 := set_archs w' _) in *.
  assert (Hds : d <> src) by (intros ->; rewrite Hsrc in Hd; injection Hd as <-; now apply Hcs).
  destruct (StoreInv_at w' w1 src (edge d sa) Hst' eq_refl Hat) as [A B]; [rewrite Hsrc; exact (Hshape d)|].
  split; [exact A|]. split; [exact (Hedge _ _ _ Hg' Hsrc Hd Hdc)|]. split; [exact B|]. split; [reflexivity|].
  split; [exists (edge d sa); rewrite Hat, N.eqb_refl; exact (conj eq_refl (Hshape d))|]. split; [|auto].
  split; [exact Hds|]. exists db. rewrite Hat, (proj2 (N.eqb_neq d src) Hds). auto.
Qed.

Lemma traverse_step : exists d w1,
  match aby_lookup w cs' with
  | Some d => ROk d (upd_arch w src (edge d))
  | None => let '(d, w1) := create_arch w cs' ins rem in ROk d (upd_arch w1 src (edge d))
  end = ROk d w1 /\
  StoreInv w1 /\ GraphInv w1 /\ (forall e k, abs w1 e k = abs w e k) /\ w_ents w1 = w_ents w /\
  (exists sa1, arch_at w1 src = Some sa1 /\ a_comps sa1 = a_comps sa /\ a_rows sa1 = a_rows sa) /\
  (d <> src /\ exists da, arch_at w1 d = Some da /\ a_comps da = cs') /\
  (forall cs ai, aby_lookup w cs = Some ai -> aby_lookup w1 cs = Some ai).
Proof using All.
  destruct (aby_lookup w cs') as [d|] eqn:El.
  - destruct (proj1 (proj2 (proj2 Hg)) _ _ El) as (db & Hdb & Hdc). exists d, (upd_arch w src (edge d)). split; [reflexivity|].
    exact (traverse_edge w d db Hst Hg Ha Hdb Hdc).
  - destruct (create_arch_ok w cs' ins rem Hst Hg Hsorted El Hins Hrem) as (Hst1 & Hg1 & Habs1 & Hents1 & Hkeep & (a1 & Ha1 & Hc1) & Hmono).
    destruct (create_arch w cs' ins rem) as [d w1]. cbn [fst snd] in *.
    destruct (traverse_edge w1 d a1 Hst1 Hg1 (Hkeep _ _ Ha) Ha1 Hc1) as (B1 & B2 & B3 & B4 & B5 & B6 & B7).
    exists d, (upd_arch w1 src (edge d)). split; [reflexivity|]. split; [exact B1|]. split; [exact B2|].
    split; [intros e k; rewrite B3; apply Habs1|]. split; [rewrite B4; exact Hents1|]. split; [exact B5|]. split; [exact B6|auto].
Qed.
End Traverse.

(* traverse_insert (archetype.rs:207-275): never fails on a consistent graph; leaves every stored
   value and every entity where it is; returns the source itself when the component is already
   there and otherwise a live archetype whose components are the source's plus the new one *)
Theorem traverse_insert_ok w src sa c :
  StoreInv w -> GraphInv w -> arch_at w src = Some sa ->
  exists d w1, traverse_insert w src c = ROk d w1 /\ StoreInv w1 /\ GraphInv w1 /\
    (forall e k, abs w1 e k = abs w e k) /\ w_ents w1 = w_ents w /\
    (exists sa1, arch_at w1 src = Some sa1 /\ a_comps sa1 = a_comps sa /\ a_rows sa1 = a_rows sa) /\
    (In c (a_comps sa) -> d = src) /\
    (~ In c (a_comps sa) -> d <> src /\ exists da, arch_at w1 d = Some da /\ a_comps da = sorted_insert c (a_comps sa)) /\
    (forall cs ai, aby_lookup w cs = Some ai -> aby_lookup w1 cs = Some ai).
Proof.
  intros Hst Hg Ha. pose proof Hg as (_ & _ & _ & Hi & _ & Hso).
  unfold traverse_insert. unfold arch_at in Ha. rewrite Ha.
  destruct (alookup c (a_ins sa)) as [d|] eqn:Ee.
  - (* cached transition *)
    destruct (Hi _ _ _ _ Ha Ee) as (Hn & b & Hb & Hc).
    exists d, w. split; [reflexivity|]. split; [exact Hst|]. split; [exact Hg|]. split; [reflexivity|]. split; [reflexivity|].
    split; [exists sa; auto|]. split; [intros X; contradiction|]. split; [|auto]. intros _. split; [|eauto].
    intros ->. unfold arch_at in Hb. rewrite Ha in Hb. injection Hb as <-. apply Hn. rewrite Hc. apply sorted_insert_in. now left.
  - destruct (arch_has sa c) eqn:Eh.
    + apply arch_has_in in Eh. exists src, w. split; [reflexivity|]. split; [exact Hst|]. split; [exact Hg|]. split; [reflexivity|]. split; [reflexivity|].
      split; [exists sa; auto|]. split; [reflexivity|]. split; [intros X; contradiction|auto].
    + assert (Hnin : ~ In c (a_comps sa)) by (intros X; apply arch_has_in in X; congruence).
      destruct (traverse_step w src sa (sorted_insert c (a_comps sa)) [] [(c, src)] (fun d a => set_edges a (ainsert c d (a_ins a)) (a_rem a)) Hst Hg Ha)
        as (d & w1 & E & B1 & B2 & B3 & B4 & B5 & B6 & B7).
      * exact (sorted_insert_sorted c _ (Hso _ _ Ha) Hnin).
      * intros X. apply Hnin. rewrite <- X. apply sorted_insert_in. now left.
      * discriminate.
      * intros c0 d0 He. cbn [alookup] in He. destruct (N.eqb_spec c0 c) as [->|_]; [|discriminate]. injection He as <-.
        split; [apply sorted_insert_in; now left|]. exists sa. split; [exact Ha|]. now rewrite filter_sorted_insert.
      * split; reflexivity.
      * intros w' d db Hg' Hsrc Hd Hdc. apply (GraphInv_set_gen w' src sa); [exact Hg'|exact Hsrc|reflexivity| |auto].
        intros c0 d0 He. cbn [a_ins set_edges] in He. destruct (N.eq_dec c0 c) as [->|Hne]; [|rewrite alookup_ainsert_neq in He by exact Hne; now left].
        rewrite alookup_ainsert_eq in He. injection He as <-. right. split; [exact Hnin|]. exists db. auto.
      * exists d, w1. split; [exact E|]. split; [exact B1|]. split; [exact B2|]. split; [exact B3|]. split; [exact B4|]. split; [exact B5|].
        split; [intros X; contradiction|]. split; [intros _; exact B6|exact B7].
Qed.

Lemma filter_notin c l : ~ In c (filter (fun x => negb (x =? c)) l).
Proof. intros H. apply filter_In in H as [_ H]. now rewrite N.eqb_refl in H. Qed.
Lemma filter_sorted c l : StronglySorted N.lt l -> StronglySorted N.lt (filter (fun x => negb (x =? c)) l).
Proof.
  induction l as [|h t IH]; intros Hs; cbn; [constructor|]. apply StronglySorted_inv in Hs as [Hs Hall].
  destruct (negb (h =? c)); [|auto]. constructor; [auto|]. rewrite Forall_forall in *. intros x Hx. apply filter_In in Hx as [Hx _]. auto.
Qed.
Lemma sorted_insert_filter c l : StronglySorted N.lt l -> In c l -> sorted_insert c (filter (fun x => negb (x =? c)) l) = l.
Proof.
  induction l as [|h t IH]; intros Hs Hin; [destruct Hin|]. apply StronglySorted_inv in Hs as [Hs Hall]. cbn [filter].
  destruct (h =? c) eqn:E; cbn [negb].
  - apply N.eqb_eq in E. subst h. (* c is the head: nothing else equals c, everything else is larger *)
    assert (Hf : filter (fun x => negb (x =? c)) t = t).
    { apply filter_notin_id. intros X. rewrite Forall_forall in Hall. specialize (Hall c X). lia. }
    rewrite Hf. destruct t as [|y t']; [reflexivity|]. cbn. inversion Hall; subst.
    now replace (c <? y) with true by (symmetry; apply N.ltb_lt; assumption).
  - destruct Hin as [->|Hin]; [rewrite N.eqb_refl in E; discriminate|]. cbn [sorted_insert].
    rewrite Forall_forall in Hall. specialize (Hall c Hin). replace (c <? h) with false by (symmetry; apply N.ltb_ge; lia).
    f_equal. apply IH; assumption.
Qed.

(* traverse_remove (archetype.rs:282-350) *)
Theorem traverse_remove_ok w src sa c :
  StoreInv w -> GraphInv w -> arch_at w src = Some sa ->
  exists d w1, traverse_remove w src c = ROk d w1 /\ StoreInv w1 /\ GraphInv w1 /\
    (forall e k, abs w1 e k = abs w e k) /\ w_ents w1 = w_ents w /\
    (exists sa1, arch_at w1 src = Some sa1 /\ a_comps sa1 = a_comps sa /\ a_rows sa1 = a_rows sa) /\
    (~ In c (a_comps sa) -> d = src) /\
    (In c (a_comps sa) -> d <> src /\ exists da, arch_at w1 d = Some da /\ a_comps da = filter (fun x => negb (x =? c)) (a_comps sa)) /\
    (forall cs ai, aby_lookup w cs = Some ai -> aby_lookup w1 cs = Some ai).
Proof.
  intros Hst Hg Ha. pose proof Hg as (_ & _ & _ & _ & Hr & Hso).
  unfold traverse_remove. unfold arch_at in Ha. rewrite Ha.
  destruct (alookup c (a_rem sa)) as [d|] eqn:Ee.
  - destruct (Hr _ _ _ _ Ha Ee) as (Hn & b & Hb & Hc).
    exists d, w. split; [reflexivity|]. split; [exact Hst|]. split; [exact Hg|]. split; [reflexivity|]. split; [reflexivity|].
    split; [exists sa; auto|]. split; [intros X; contradiction|]. split; [|auto]. intros _. split; [|eauto].
    intros ->. unfold arch_at in Hb. rewrite Ha in Hb. injection Hb as <-. apply (filter_notin c (a_comps sa)). now rewrite <- Hc.
  - destruct (arch_has sa c) eqn:Eh; cbn [negb].
    + apply arch_has_in in Eh.
      destruct (traverse_step w src sa (filter (fun x => negb (x =? c)) (a_comps sa)) [(c, src)] [] (fun d a => set_edges a (a_ins a) (ainsert c d (a_rem a))) Hst Hg Ha)
        as (d & w1 & E & B1 & B2 & B3 & B4 & B5 & B6 & B7).
      * exact (filter_sorted c _ (Hso _ _ Ha)).
      * intros X. apply (filter_notin c (a_comps sa)). now rewrite X.
      * intros c0 d0 He. cbn [alookup] in He. destruct (N.eqb_spec c0 c) as [->|_]; [|discriminate]. injection He as <-.
        split; [apply filter_notin|]. exists sa. split; [exact Ha|]. now rewrite sorted_insert_filter by eauto.
      * discriminate.
      * split; reflexivity.
      * intros w' d db Hg' Hsrc Hd Hdc. apply (GraphInv_set_gen w' src sa); [exact Hg'|exact Hsrc|reflexivity|auto|].
        intros c0 d0 He. cbn [a_rem set_edges] in He. destruct (N.eq_dec c0 c) as [->|Hne]; [|rewrite alookup_ainsert_neq in He by exact Hne; now left].
        rewrite alookup_ainsert_eq in He. injection He as <-. right. split; [exact Eh|]. exists db. auto.
      * exists d, w1. split; [exact E|]. split; [exact B1|]. split; [exact B2|]. split; [exact B3|]. split; [exact B4|]. split; [exact B5|].
        split; [intros X; contradiction|]. split; [intros _; exact B6|exact B7].
    + assert (Hnin : ~ In c (a_comps sa)) by (intros X; apply arch_has_in in X; congruence).
      exists src, w. split; [reflexivity|]. split; [exact Hst|]. split; [exact Hg|]. split; [reflexivity|]. split; [reflexivity|].
      split; [exists sa; auto|]. split; [reflexivity|]. split; [intros X; contradiction|auto].
Qed.
