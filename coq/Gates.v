(* Gates.v : the compile-time restrictions of C18 as a rule model.  The rules themselves
   (which marker impls exist and under which bounds) are NOT written here: gen/gates.py
   regenerates coq/gen/GateRules.v from the source on every run; the theorems below are
   re-checked against what the source says now.  rustc's trait solver is modelled only for
   these marker traits. *)
From Coq Require Import List NArith Bool.
Import ListNotations.
Require Import EV.Base EV.Access EV.Query EV.QueryInd EV.Aliasing EV.gen.GateRules.

(* Q: ReadOnlyQuery, as derivable from the impl headers *)
Fixpoint ro (q : query) : bool :=
  match q with
  | QRef _ => g_ro_ref
  | QMut _ => g_ro_mut
  | QTuple qs => g_ro_tuple && (if g_ro_tuple_needs_all then forallb ro qs else true)
  | QOpt x => g_ro_opt && (if g_ro_opt_needs_inner then ro x else true)
  | QOr l r => g_ro_or && (if g_ro_or_needs_left then ro l else true) && (if g_ro_or_needs_right then ro r else true)
  | QXor l r => g_ro_xor && (if g_ro_xor_needs_left then ro l else true) && (if g_ro_xor_needs_right then ro r else true)
  | QNot x => g_ro_not && (if g_ro_not_needs_inner then ro x else true)
  | QWith x => g_ro_with && (if g_ro_with_needs_inner then ro x else true)
  | QHas x => g_ro_has && (if g_ro_has_needs_inner then ro x else true)
  | QEid => g_ro_eid
  end.

(* Q: Query, given which components are declared mutable *)
Fixpoint is_query (mutable : N -> bool) (q : query) : bool :=
  match q with
  | QRef c => if g_ref_query_needs_mutable then mutable c else true
  | QMut c => if g_mut_query_needs_mutable then mutable c else true
  | QTuple qs => forallb (is_query mutable) qs
  | QOpt x | QNot x | QWith x | QHas x => is_query mutable x
  | QOr l r | QXor l r => is_query mutable l && is_query mutable r
  | QEid => true
  end.

Definition no_mut_refs (l : list (N * bool)) : bool := forallb (fun r => negb (snd r)) l.

Lemma no_mut_refs_app a b : no_mut_refs (a ++ b) = no_mut_refs a && no_mut_refs b.
Proof. apply forallb_app. Qed.

(* a query that the source marks ReadOnlyQuery never hands out a mutable reference, whatever
   the archetype: this is what makes get / iter through a shared fetcher borrow sound *)
(* on the references of the branch taken ([Aliasing.srefs], which [arefs] of the matcher's state equals) *)
Lemma ro_srefs (q : query) : ro q = true -> forall a, no_mut_refs (srefs a q) = true.
Proof.
  induction q as [c|c|qs IH|q IH|l r IHl IHr|l r IHl IHr|q IH|q IH|q IH|] using query_ind'; cbn [ro srefs]; intros Hro a; try reflexivity.
  - discriminate.
  - cbn in Hro. induction IH as [|x l Hx _ IHl]; cbn [flat_map]; [reflexivity|]. cbn in Hro. apply andb_true_iff in Hro as [Hx' Hl'].
    now rewrite no_mut_refs_app, (Hx Hx'), IHl.
  - destruct (qmatch a q); [now apply IH|reflexivity].
  - cbn in Hro. apply andb_true_iff in Hro as [Hl Hr]. rewrite no_mut_refs_app. destruct (qmatch a l), (qmatch a r); rewrite ?IHl, ?IHr by assumption; reflexivity.
  - cbn in Hro. apply andb_true_iff in Hro as [Hl Hr]. rewrite no_mut_refs_app. destruct (qmatch a l), (qmatch a r); rewrite ?IHl, ?IHr by assumption; reflexivity.
Qed.

Theorem ro_sound (q : query) : ro q = true ->
  forall (a : N -> bool) (st : astate), arch_state a q = Some st -> no_mut_refs (arefs st) = true.
Proof. intros Hro a st Hs. rewrite (arefs_srefs a q st Hs). now apply ro_srefs. Qed.

(* a query type that exists mentions `&mut C` only for components declared mutable *)
Fixpoint mut_leaves (q : query) : list N :=
  match q with
  | QMut c => [c]
  | QRef _ | QEid => []
  | QTuple qs => flat_map mut_leaves qs
  | QOpt x | QNot x | QWith x | QHas x => mut_leaves x
  | QOr l r | QXor l r => mut_leaves l ++ mut_leaves r
  end.
Theorem mut_needs_mutable (mutable : N -> bool) (q : query) :
  is_query mutable q = true -> forall c, In c (mut_leaves q) -> mutable c = true.
Proof.
  induction q as [c|c|qs IH|q IH|l r IHl IHr|l r IHl IHr|q IH|q IH|q IH|] using query_ind'; cbn [is_query mut_leaves]; intros Hq c0 Hin;
    try (destruct Hin; fail); auto.
  3-4: apply andb_true_iff in Hq as [H1 H2]; apply in_app_or in Hin as [Hin|Hin]; auto.
  - unfold g_mut_query_needs_mutable in Hq. destruct Hin as [<-|[]]. exact Hq.
  - induction IH as [|x l Hx _ IHl]; cbn in *; [destruct Hin|].
    apply andb_true_iff in Hq as [H1 H2]. apply in_app_or in Hin as [Hin|Hin]; auto.
Qed.

(* the methods that read through a shared borrow (or duplicate an iterator) carry the bound;
   the exclusive-borrow methods do not (the permitted variants compile) *)
Theorem shared_access_is_gated :
  g_get_needs_ro && g_iter_needs_ro && g_ref_into_iter_needs_ro && (negb g_iter_clone_exists || g_iter_clone_needs_ro) = true /\
  g_get_mut_needs_ro = false /\ g_iter_mut_needs_ro = false.
Proof. repeat split; reflexivity. Qed.

Theorem event_and_component_mutability_is_gated :
  g_receiver_mut_needs_mutable && g_world_get_mut_needs_mutable && g_mut_query_needs_mutable = true /\
  g_ref_query_needs_mutable = false.
Proof. split; reflexivity. Qed.

(* World is neither Send nor Sync (raw-pointer marker field, no unsafe impl overriding it);
   Fetcher and Iter are Send/Sync only through impls conditioned on the item type *)
Theorem thread_safety_is_gated :
  g_world_has_not_send_marker && negb g_world_unsafe_send_impl && negb g_world_unsafe_sync_impl = true /\
  (g_fetcher_send_impl = true -> g_fetcher_send_needs_item = true) /\ (g_fetcher_sync_impl = true -> g_fetcher_sync_needs_item = true) /\
  (g_iter_send_impl = true -> g_iter_send_needs_item = true) /\ (g_iter_sync_impl = true -> g_iter_sync_needs_item = true).
Proof. repeat split; reflexivity. Qed.

(* predictions used by the compile-test correspondence *)
Definition predict_shared (mutable : N -> bool) (q : query) : bool := is_query mutable q && ro q.
Definition predict_exclusive (mutable : N -> bool) (q : query) : bool := is_query mutable q.
