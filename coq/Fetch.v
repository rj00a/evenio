(* Fetch.v : the fetcher caches (C10, C06 at world level).
     CI w q c : the cache c of a parameter with query q lists, once each, exactly the non-empty
                archetypes of w that q matches, each with its current identity and buffer epoch.
   FI: every cache-bearing parameter of every live handler satisfies CI; with the refresh-listener
   sets (RfInv) this is an invariant of every call, so a handler's Fetcher / Single / targeted
   receiver always sees exactly the current entities its query matches, and never a stale entry. *)
From Coq Require Import List NArith Bool Lia Sorted Permutation.
Import ListNotations.
Require Import EV.Base EV.ListN EV.Access EV.Query EV.SlotMap EV.Reserve EV.HList EV.Loop EV.World EV.StorageSpec EV.SlotMapGet
  EV.AccessProofs EV.ArchProofs EV.QueryProofs EV.WorldFrame EV.Layer EV.Store EV.Register EV.Graph EV.Effects EV.Reach EV.Steps EV.RemoveComp EV.Member EV.Listen EV.Order.
Open Scope N_scope.

Lemma npos_split {A} (p : A -> bool) l : forall i, nposition p l = Some i ->
  exists l1 x l2, l = l1 ++ x :: l2 /\ p x = true /\ (forall y, In y l1 -> p y = false) /\ i = nlen l1.
Proof. intros i H. destruct (ListN.nposition_split p l i H) as (l1 & x & l2 & A1 & A2 & A3 & A4). exists l1, x, l2. auto. Qed.

Definition idx_nodup (c : list centry) : Prop := NoDup (map ce_idx c).

Lemma idx_nodup_in c x y : idx_nodup c -> In x c -> In y c -> ce_idx x = ce_idx y -> x = y.
Proof.
  unfold idx_nodup. induction c as [|h t IH]; cbn [map]; intros Hnd Hx Hy E; [destruct Hx|]. inversion Hnd; subst.
  destruct Hx as [<-|Hx], Hy as [<-|Hy]; auto.
  - exfalso. apply H1. rewrite E. now apply in_map.
  - exfalso. apply H1. rewrite <- E. now apply in_map.
Qed.

Lemma cache_insert_spec c e0 : idx_nodup c ->
  idx_nodup (cache_insert c e0) /\ forall x, In x (cache_insert c e0) <-> x = e0 \/ (In x c /\ ce_idx x <> ce_idx e0).
Proof.
  intros Hnd. unfold cache_insert. destruct (nposition (fun x => ce_idx x =? ce_idx e0) c) as [i|] eqn:Ep.
  - destruct (ListN.nposition_split _ _ _ Ep) as (l1 & old & l2 & -> & <- & Hp & Hn). apply N.eqb_eq in Hp. rewrite nset_app_mid.
    unfold idx_nodup in *. rewrite map_app in *. cbn [map] in *. rewrite Hp in Hnd. split; [exact Hnd|].
    intros x. rewrite !in_app_iff. cbn [In]. split.
    + intros [H|[<-|H]]; [right|now left|right].
      * split; [now left|]. intros E. apply NoDup_remove_2 in Hnd. apply Hnd. apply in_or_app. left. rewrite <- E. now apply in_map.
      * split; [right; now right|]. intros E. apply NoDup_remove_2 in Hnd. apply Hnd. apply in_or_app. right. rewrite <- E. now apply in_map.
    + intros [->|[[H|[<-|H]] Hne]]; [right; now left|now left|congruence|right; now right].
  - pose proof (ListN.nposition_none _ _ Ep) as Hn. split.
    + unfold idx_nodup in *. rewrite map_app. cbn [map]. apply NoDup_app_snoc; [exact Hnd|]. intros X. apply in_map_iff in X as (y & E & Hy).
      specialize (Hn y Hy). cbn in Hn. apply N.eqb_neq in Hn. congruence.
    + intros x. rewrite in_app_iff. cbn [In]. split.
      * intros [H|[<-|[]]]; [right; split; [exact H|]|now left]. specialize (Hn x H). cbn in Hn. now apply N.eqb_neq in Hn.
      * intros [->|[H _]]; [right; now left|now left].
Qed.


Lemma cache_remove_spec c ai : idx_nodup c ->
  idx_nodup (cache_remove c ai) /\ forall x, In x (cache_remove c ai) <-> In x c /\ ce_idx x <> ai.
Proof.
  intros Hnd. unfold cache_remove. destruct (nposition (fun x => ce_idx x =? ai) c) as [i|] eqn:Ep.
  - destruct (ListN.nposition_split _ _ _ Ep) as (l1 & old & l2 & -> & <- & Hp & Hn). apply N.eqb_eq in Hp.
    pose proof (swap_remove_perm l1 old l2) as Hperm. unfold idx_nodup in *.
    assert (Hnd' : NoDup (map ce_idx (l1 ++ l2))) by (rewrite map_app in *; cbn [map] in Hnd; eapply NoDup_remove_1; eauto).
    assert (Hnot : forall y, In y (l1 ++ l2) -> ce_idx y <> ai).
    { intros y Hy E. rewrite map_app in Hnd. cbn [map] in Hnd. apply NoDup_remove_2 in Hnd. apply Hnd. rewrite Hp, <- E. rewrite <- map_app. now apply in_map. }
    split.
    + eapply Permutation_NoDup; [apply Permutation_map; symmetry; exact Hperm|exact Hnd'].
    + intros x. split.
      * intros H. apply (Permutation_in _ Hperm) in H. split; [|now apply Hnot]. apply in_app_or in H as [H|H]; apply in_or_app; [now left|right; now right].
      * intros [H Hne]. apply (Permutation_in _ (Permutation_sym Hperm)). apply in_app_or in H as [H|[<-|H]]; [apply in_or_app; now left|congruence|apply in_or_app; now right].
  - pose proof (ListN.nposition_none _ _ Ep) as Hn. split; [exact Hnd|]. intros x. split; [|tauto]. intros H. split; [exact H|]. specialize (Hn x H). cbn in Hn. now apply N.eqb_neq in Hn.
Qed.

Definition amatch (a : arch) (q : query) : bool := match arch_state (arch_has a) q with Some _ => true | None => false end.

(* the part of an archetype a cache entry depends on *)
Definition cview (a : arch) := (a_comps a, a_uid a, a_epoch a, 0 <? nlen (a_rows a)).

Definition good (w : world) (q : query) (j : N) (c : list centry) : Prop :=
  forall u e, In (j, u, e) c <-> exists a, arch_at w j = Some a /\ 0 < nlen (a_rows a) /\ amatch a q = true /\ u = a_uid a /\ e = a_epoch a.

Definition CI (w : world) (q : query) (c : list centry) : Prop := idx_nodup c /\ forall j, good w q j c.

Lemma amatch_comps a a' q : a_comps a' = a_comps a -> amatch a' q = amatch a q.
Proof. intros E. unfold amatch, arch_has. now rewrite E. Qed.

Lemma good_ext w w' q j c : option_map cview (arch_at w' j) = option_map cview (arch_at w j) -> good w q j c -> good w' q j c.
Proof.
  intros E G u e. rewrite (G u e). destruct (arch_at w' j) as [a'|], (arch_at w j) as [a|]; cbn in E; try discriminate.
  - injection E as Ec Eu Ee En. split; intros (x & X & Y & Z & -> & ->); inversion X; subst x.
    + exists a'. split; [reflexivity|]. split; [apply N.ltb_lt; rewrite En; now apply N.ltb_lt|]. split; [now rewrite (amatch_comps a a' q Ec)|auto].
    + exists a. split; [reflexivity|]. split; [apply N.ltb_lt; rewrite <- En; now apply N.ltb_lt|]. split; [now rewrite <- (amatch_comps a a' q Ec)|auto].
  - split; intros (x & X & _); discriminate.
Qed.

Lemma good_insert_same w q ai a c : idx_nodup c -> arch_at w ai = Some a -> 0 < nlen (a_rows a) -> amatch a q = true ->
  good w q ai (cache_insert c (ai, a_uid a, a_epoch a)).
Proof.
  intros Hnd Ha Hn Hm u e. destruct (cache_insert_spec c (ai, a_uid a, a_epoch a) Hnd) as [_ Hin]. rewrite Hin. cbn. split.
  - intros [X|[_ X]]; [inversion X; subst; exists a; auto|now contradiction X].
  - intros (x & X & _ & _ & -> & ->). rewrite Ha in X. inversion X; subst x. now left.
Qed.
Lemma good_insert_other w q ai j c e0 : idx_nodup c -> j <> ai -> ce_idx e0 = ai -> good w q j c -> good w q j (cache_insert c e0).
Proof.
  intros Hnd Hne He G u e. destruct (cache_insert_spec c e0 Hnd) as [_ Hin]. rewrite Hin, <- (G u e). cbn. rewrite He. split.
  - intros [X|[X _]]; [subst e0; cbn in He; congruence|exact X].
  - intros X. right. split; [exact X|exact Hne].
Qed.
Lemma good_remove_same w q ai c : idx_nodup c -> (forall a, arch_at w ai = Some a -> 0 < nlen (a_rows a) -> amatch a q = false) -> good w q ai (cache_remove c ai).
Proof.
  intros Hnd Hno u e. destruct (cache_remove_spec c ai Hnd) as [_ Hin]. rewrite Hin. cbn. split; [intros [_ X]; now contradiction X|].
  intros (a & X & Y & Z & _). rewrite (Hno a X Y) in Z. discriminate.
Qed.
Lemma good_remove_other w q ai j c : idx_nodup c -> j <> ai -> good w q j c -> good w q j (cache_remove c ai).
Proof.
  intros Hnd Hne G u e. destruct (cache_remove_spec c ai Hnd) as [_ Hin]. rewrite Hin, <- (G u e). cbn. tauto.
Qed.
(* a cache with no entry for j is good at j as soon as j needs none *)
Lemma good_none w q j c : (forall u e, ~ In (j, u, e) c) -> (forall a, arch_at w j = Some a -> 0 < nlen (a_rows a) -> amatch a q = false) -> good w q j c.
Proof.
  intros Hn Hno u e. split; [intros X; now apply Hn in X|]. intros (a & X & Y & Z & _). rewrite (Hno a X Y) in Z. discriminate.
Qed.
Lemma good_no_entry w q j c : good w q j c -> (forall a, arch_at w j = Some a -> 0 < nlen (a_rows a) -> amatch a q = false) -> forall u e, ~ In (j, u, e) c.
Proof. intros G Hno u e X. apply G in X as (a & A & B & C & _). rewrite (Hno a A B) in C. discriminate. Qed.

Definition pquery (p : rparam) : option (query * list centry) :=
  match p with RRecvT _ q c | RFetch _ q c => Some (q, c) | _ => None end.

(* every cache-bearing parameter of every live handler is duplicate-free and good at every archetype not in S *)
Definition FIx (w : world) (S : N -> Prop) : Prop :=
  forall hk h p q c, hlive w hk h -> In p (h_params h) -> pquery p = Some (q, c) -> idx_nodup c /\ forall j, ~ S j -> good w q j c.
Definition FI (w : world) : Prop := FIx w (fun _ => False).

Lemma FI_CI w hk h p q c : FI w -> hlive w hk h -> In p (h_params h) -> pquery p = Some (q, c) -> CI w q c.
Proof. intros HF Hl Hp Hq. destruct (HF hk h p q c Hl Hp Hq) as [A B]. split; [exact A|]. intros j. apply B. tauto. Qed.

Lemma FIx_weaken w (S S' : N -> Prop) : (forall j, S j -> S' j) -> FIx w S -> FIx w S'.
Proof. intros H HF hk h p q c A B C. destruct (HF hk h p q c A B C) as [X Y]. split; [exact X|]. intros j Hj. apply Y. intros Z. apply Hj. now apply H. Qed.

Lemma FIx_arch_change w w' (D : N -> Prop) : w_hs w' = w_hs w ->
  (forall j, ~ D j -> option_map cview (arch_at w' j) = option_map cview (arch_at w j)) -> FI w -> FIx w' D.
Proof.
  intros Hhs Hv HF hk h p q c Hl Hp Hq. unfold hlive in Hl. rewrite Hhs in Hl. destruct (HF hk h p q c Hl Hp Hq) as [X Y]. split; [exact X|].
  intros j Hj. apply (good_ext w); [now apply Hv|]. apply Y. tauto.
Qed.

(* refresh listeners: exactly the live handlers whose union access matches the archetype *)
Definition RfInv (w : world) : Prop :=
  forall ai a, arch_at w ai = Some a -> forall hk, In hk (a_refresh a) <-> exists h, hlive w hk h /\ ca_matches (arch_has a) (h_archfilter h) = true.
(* static: a parameter's query can only match where the handler's union access matches *)
Definition PInv (w : world) : Prop :=
  forall hk h p q c, hlive w hk h -> In p (h_params h) -> pquery p = Some (q, c) -> forall a, amatch a q = true -> ca_matches (arch_has a) (h_archfilter h) = true.

Lemma entry_cov w ai a hk h p q c u e : FI w -> RfInv w -> PInv w -> arch_at w ai = Some a ->
  hlive w hk h -> In p (h_params h) -> pquery p = Some (q, c) -> In (ai, u, e) c -> In hk (a_refresh a).
Proof.
  intros HF HR HP Ha Hl Hp Hq Hin. destruct (HF hk h p q c Hl Hp Hq) as [_ Hg]. apply (Hg ai (fun X => X)) in Hin as (a0 & A & _ & Hm & _).
  rewrite Ha in A. inversion A; subst a0. apply (HR ai a Ha hk). exists h. split; [exact Hl|]. eapply HP; eauto.
Qed.
Lemma no_entry_nomatch w ai a hk h p q c : FI w -> arch_at w ai = Some a -> hlive w hk h -> In p (h_params h) -> pquery p = Some (q, c) ->
  amatch a q = false -> forall u e, ~ In (ai, u, e) c.
Proof.
  intros HF Ha Hl Hp Hq Hm u e Hin. destruct (HF hk h p q c Hl Hp Hq) as [_ Hg]. apply (Hg ai (fun X => X)) in Hin as (a0 & A & _ & Hm0 & _).
  rewrite Ha in A. inversion A; subst a0. congruence.
Qed.

Lemma pquery_refresh ai a p q c : pquery p = Some (q, c) ->
  pquery (param_refresh ai a p) = Some (q, if amatch a q then cache_insert c (ai, a_uid a, a_epoch a) else c).
Proof.
  destruct p; cbn [pquery param_refresh]; intros H; inversion H; subst; unfold amatch; destruct (arch_state (arch_has a) q); reflexivity.
Qed.
Lemma pquery_refresh_none ai a p : pquery p = None -> param_refresh ai a p = p.
Proof. destruct p; cbn; intros H; try discriminate; reflexivity. Qed.
Lemma pquery_remove ai p q c : pquery p = Some (q, c) -> pquery (param_remove ai p) = Some (q, cache_remove c ai).
Proof. destruct p; cbn [pquery param_remove]; intros H; inversion H; subst; reflexivity. Qed.
Lemma pquery_refresh_inv ai a p q c' : pquery (param_refresh ai a p) = Some (q, c') ->
  exists c, pquery p = Some (q, c) /\ c' = if amatch a q then cache_insert c (ai, a_uid a, a_epoch a) else c.
Proof.
  intros H. destruct (pquery p) as [[q0 c0]|] eqn:E.
  - rewrite (pquery_refresh ai a p q0 c0 E) in H. inversion H; subst. eauto.
  - rewrite (pquery_refresh_none ai a p E), E in H. discriminate.
Qed.
Lemma pquery_remove_inv ai p q c' : pquery (param_remove ai p) = Some (q, c') -> exists c, pquery p = Some (q, c) /\ c' = cache_remove c ai.
Proof. destruct p; cbn [pquery param_remove]; intros H; inversion H; subst; eauto. Qed.

Lemma fold_upd_keys (f : hinfo -> hinfo) ks : NoDup ks -> forall hs x,
  sm_get x (fold_left (fun hs hk => upd_by_key hs hk f) ks hs) = if in_dec key_eq_dec x ks then option_map f (sm_get x hs) else sm_get x hs.
Proof.
  induction ks as [|k ks IH]; intros Hnd hs x; cbn [fold_left]; [reflexivity|]. inversion Hnd as [|? ? Hni Hnd']; subst. rewrite (IH Hnd').
  destruct (in_dec key_eq_dec x ks) as [Hin|Hn]; destruct (in_dec key_eq_dec x (k :: ks)) as [Hin'|Hn'].
  - assert (x <> k) by (intros ->; contradiction). now rewrite upd_key_get_other.
  - exfalso. apply Hn'. now right.
  - destruct Hin' as [<-|X]; [|contradiction]. destruct (sm_get k hs) as [v|] eqn:E; [now rewrite (upd_key_get_self hs k f v E)|].
    unfold upd_by_key. now rewrite E, E.
  - assert (x <> k) by (intros ->; apply Hn'; now left). now rewrite upd_key_get_other.
Qed.

Lemma notify_refresh_hs w ai a : arch_at w ai = Some a -> NoDup (a_refresh a) -> forall x,
  sm_get x (w_hs (notify_refresh w ai)) = if in_dec key_eq_dec x (a_refresh a) then option_map (h_refresh ai a) (sm_get x (w_hs w)) else sm_get x (w_hs w).
Proof. intros Ha Hnd x. unfold notify_refresh. unfold arch_at in Ha. rewrite Ha. cbn [w_hs set_hs]. now apply fold_upd_keys. Qed.
Lemma notify_remove_with_hs w ai a : NoDup (a_refresh a) -> forall x,
  sm_get x (w_hs (notify_remove_with w ai a)) = if in_dec key_eq_dec x (a_refresh a) then option_map (h_remove_arch ai) (sm_get x (w_hs w)) else sm_get x (w_hs w).
Proof. intros Hnd x. unfold notify_remove_with. cbn [w_hs set_hs]. now apply fold_upd_keys. Qed.

Lemma notify_refresh_arch_at w ai j : arch_at (notify_refresh w ai) j = arch_at w j.
Proof. unfold arch_at. now rewrite notify_refresh_eq. Qed.
Lemma notify_remove_with_arch_at w ai a j : arch_at (notify_remove_with w ai a) j = arch_at w j.
Proof. reflexivity. Qed.

Definition RN (w : world) : Prop := forall ai a, arch_at w ai = Some a -> NoDup (a_refresh a).
Definition XI (w : world) : Prop := FI w /\ RfInv w /\ PInv w /\ RN w.

Definition RI (w : world) : Prop := RfInv w /\ PInv w /\ RN w.
(* XI with the caches still to be repaired at the archetypes in D *)
Definition XIx (w : world) (D : N -> Prop) : Prop := FIx w D /\ RI w.

Lemma XIx_weaken w (D D' : N -> Prop) : (forall j, D j -> D' j) -> XIx w D -> XIx w D'.
Proof.
  intros H [HF HS]. exact (conj (FIx_weaken w D D' H HF) HS).
Qed.
Lemma XIx_of_XI w D : XI w -> XIx w D.
Proof. apply XIx_weaken. intros j []. Qed.

Definition pqs (h : hinfo) : list (option query) := map (fun p => option_map fst (pquery p)) (h_params h).
Definition hview2 (h : hinfo) := (hstat h, pqs h).
Definition rview (a : arch) := (a_comps a, a_refresh a).

Lemma hview2_skel h : hview2 (hskel h) = hview2 h.
Proof. unfold hview2, pqs, hskel. cbn [h_params set_params]. rewrite map_map. f_equal. apply map_ext. intros p. now destruct p. Qed.
Lemma pqs_refresh ai a h : pqs (h_refresh ai a h) = pqs h.
Proof. change (snd (hview2 (h_refresh ai a h)) = snd (hview2 h)). now rewrite <- hview2_skel, hskel_refresh, hview2_skel. Qed.
Lemma pqs_remove ai h : pqs (h_remove_arch ai h) = pqs h.
Proof. change (snd (hview2 (h_remove_arch ai h)) = snd (hview2 h)). now rewrite <- hview2_skel, hskel_remove_arch, hview2_skel. Qed.

Lemma hview2_live w w' : (forall hk, option_map hview2 (sm_get hk (w_hs w')) = option_map hview2 (sm_get hk (w_hs w))) ->
  forall hk h', hlive w' hk h' -> exists h, hlive w hk h /\ hstat h' = hstat h /\ pqs h' = pqs h.
Proof.
  intros Hv hk h' Hl. unfold hlive in *. specialize (Hv hk). rewrite Hl in Hv. destruct (sm_get hk (w_hs w)) as [h|]; cbn [option_map] in Hv; [|discriminate].
  unfold hview2 in Hv. exists h. split; [reflexivity|]. split; congruence.
Qed.

Lemma pqs_param h h' p q c : pqs h' = pqs h -> In p (h_params h') -> pquery p = Some (q, c) -> exists p0 c0, In p0 (h_params h) /\ pquery p0 = Some (q, c0).
Proof.
  unfold pqs. intros E Hin Hq. assert (X : In (Some q) (map (fun p => option_map fst (pquery p)) (h_params h'))).
  { apply in_map_iff. exists p. split; [now rewrite Hq|exact Hin]. }
  rewrite E in X. apply in_map_iff in X as (p0 & Y & Hin0). destruct (pquery p0) as [[q0 c0]|] eqn:E0; cbn in Y; [|discriminate].
  inversion Y; subst q0. eauto.
Qed.

Lemma PInv_ext w w' : sview hview2 (w_hs w') = sview hview2 (w_hs w) -> PInv w -> PInv w'.
Proof.
  intros Hv HP hk h' p q c Hl Hp Hq a Hm. destruct (hview2_live w w' (fun k => sview_get hview2 _ _ k Hv) hk h' Hl) as (h & Hl0 & Es & Ep).
  destruct (pqs_param h h' p q c Ep Hp Hq) as (p0 & c0 & Hp0 & Hq0). rewrite (f_equal h_archfilter Es : h_archfilter h' = h_archfilter h). eapply HP; eauto.
Qed.
Lemma RfInv_ext w w' : sview hview2 (w_hs w') = sview hview2 (w_hs w) -> (forall j, option_map rview (arch_at w' j) = option_map rview (arch_at w j)) ->
  RfInv w -> RfInv w'.
Proof.
  intros Hv Ha HR ai a' Ha' hk. specialize (Ha ai). rewrite Ha' in Ha. destruct (arch_at w ai) as [a|] eqn:E; cbn in Ha; [|discriminate]. injection Ha as Ec Er.
  rewrite Er, (HR ai a E hk). unfold arch_has. rewrite Ec.
  assert (Hv' : sview hview2 (w_hs w) = sview hview2 (w_hs w')) by now symmetry.
  split; intros (h & Hl & Hm).
  - destruct (hview2_live w' w (fun k => sview_get hview2 _ _ k Hv') hk h Hl) as (h' & Hl' & Es & _). exists h'. split; [exact Hl'|now rewrite <- (f_equal h_archfilter Es : h_archfilter h = h_archfilter h')].
  - destruct (hview2_live w w' (fun k => sview_get hview2 _ _ k Hv) hk h Hl) as (h0 & Hl0 & Es & _). exists h0. split; [exact Hl0|now rewrite <- (f_equal h_archfilter Es : h_archfilter h = h_archfilter h0)].
Qed.

Lemma RI_ext w w' : (forall hk, option_map hview2 (sm_get hk (w_hs w')) = option_map hview2 (sm_get hk (w_hs w))) ->
  (forall j a', arch_at w' j = Some a' -> exists a, arch_at w j = Some a /\ rview a' = rview a) -> RI w -> RI w'.
Proof.
  intros Hv Ha (HR & HP & HN).
  assert (Hv' : forall hk, option_map hview2 (sm_get hk (w_hs w)) = option_map hview2 (sm_get hk (w_hs w'))) by (intros; now rewrite Hv).
  split; [|split].
  - intros ai a' Ha' hk. destruct (Ha ai a' Ha') as (a & E & Er). unfold rview in Er. injection Er as Ec Err.
    rewrite Err, (HR ai a E hk). unfold arch_has. rewrite Ec. split; intros (h & Hl & Hm).
    + destruct (hview2_live w' w Hv' hk h Hl) as (h' & Hl' & Ea & _). exists h'. split; [exact Hl'|now rewrite <- (f_equal h_archfilter Ea : h_archfilter h = h_archfilter h')].
    + destruct (hview2_live w w' Hv hk h Hl) as (h0 & Hl0 & Ea & _). exists h0. split; [exact Hl0|now rewrite <- (f_equal h_archfilter Ea : h_archfilter h = h_archfilter h0)].
  - intros hk h' p q c Hl Hp Hq a Hm. destruct (hview2_live w w' Hv hk h' Hl) as (h & Hl0 & Ea & Ep).
    destruct (pqs_param h h' p q c Ep Hp Hq) as (p0 & c0 & Hp0 & Hq0). rewrite (f_equal h_archfilter Ea : h_archfilter h' = h_archfilter h). eapply HP; eauto.
  - intros j a' Hj. destruct (Ha j a' Hj) as (a & E & Er). unfold rview in Er. injection Er as _ Err. rewrite Err. eapply HN; eauto.
Qed.

Lemma hview2_notify_refresh w ai : sview hview2 (w_hs (notify_refresh w ai)) = sview hview2 (w_hs w).
Proof. exact (skel_view hview2 _ _ hview2_skel (hsk_hfix _ _ (hfix_notify_refresh w ai))). Qed.
Lemma hview2_notify_remove_with w ai a : sview hview2 (w_hs (notify_remove_with w ai a)) = sview hview2 (w_hs w).
Proof. exact (skel_view hview2 _ _ hview2_skel (hsk_hfix _ _ (hfix_notify_remove_with w ai a))). Qed.

Lemma XIx_rows w w' (D : N -> Prop) : (forall x, sm_get x (w_hs w') = sm_get x (w_hs w)) ->
  (forall j, ~ D j -> option_map cview (arch_at w' j) = option_map cview (arch_at w j)) ->
  (forall j a', arch_at w' j = Some a' -> exists a, arch_at w j = Some a /\ rview a' = rview a) -> XIx w D -> XIx w' D.
Proof.
  intros Hhs Hcv Hrv [HF HS]. split.
  - intros hk h p q c Hl Hp Hq. unfold hlive in Hl. rewrite Hhs in Hl. destruct (HF hk h p q c Hl Hp Hq) as [X Y]. split; [exact X|].
    intros j Hj. apply (good_ext w); [now apply Hcv|now apply Y].
  - apply (RI_ext w); [intros hk; now rewrite Hhs|exact Hrv|exact HS].
Qed.

Lemma XI_ext2 w w' : (forall x, sm_get x (w_hs w') = sm_get x (w_hs w)) ->
  (forall j, option_map cview (arch_at w' j) = option_map cview (arch_at w j)) ->
  (forall j, option_map rview (arch_at w' j) = option_map rview (arch_at w j)) -> XI w -> XI w'.
Proof.
  intros Hhs Hcv Hrv. apply (XIx_rows w w' (fun _ => False) Hhs (fun j _ => Hcv j)). intros j a' Hj. specialize (Hrv j). rewrite Hj in Hrv.
  destruct (arch_at w j) as [a|]; [|discriminate]. exists a. split; [reflexivity|]. cbn [option_map] in Hrv. congruence.
Qed.

Lemma XI_ext w w' : w_hs w' = w_hs w ->
  (forall j, option_map cview (arch_at w' j) = option_map cview (arch_at w j)) ->
  (forall j, option_map rview (arch_at w' j) = option_map rview (arch_at w j)) -> XI w -> XI w'.
Proof. intros Hhs. apply XI_ext2. intros x. now rewrite Hhs. Qed.

Lemma slab_arch_at_set2 archs sai dst sa1 da2 sa da : sai <> dst -> slab_get archs sai = Some sa -> slab_get archs dst = Some da ->
  forall j, slab_get (slab_set (slab_set archs sai sa1) dst da2) j = if j =? dst then Some da2 else if j =? sai then Some sa1 else slab_get archs j.
Proof.
  intros Hne Hsa Hda j. rewrite (slab_get_set _ dst da da2 j), (slab_get_set _ sai sa sa1 j Hsa); [reflexivity|]. now rewrite slab_get_set_neq.
Qed.

Lemma arch_at_set w w' ai a0 a : slab_get (w_archs w) ai = Some a0 -> w_archs w' = slab_set (w_archs w) ai a ->
  forall j, arch_at w' j = if j =? ai then Some a else arch_at w j.
Proof.
  intros H0 E j. unfold arch_at. rewrite E. destruct (j =? ai) eqn:Ej; [apply N.eqb_eq in Ej; subst; eapply slab_get_set_eq; eauto|].
  apply N.eqb_neq in Ej. now rewrite slab_get_set_neq by auto.
Qed.

Lemma XIx_set w w' ai a a' (D : N -> Prop) : w_hs w' = w_hs w -> slab_get (w_archs w) ai = Some a -> w_archs w' = slab_set (w_archs w) ai a' ->
  rview a' = rview a -> (~ D ai -> cview a' = cview a) -> XIx w D -> XIx w' D.
Proof.
  intros Hhs Ha Ear Er Ec. pose proof (arch_at_set w w' ai a a' Ha Ear) as Hat. apply XIx_rows; [intros x; now rewrite Hhs| |].
  - intros j Hj. rewrite Hat. destruct (j =? ai) eqn:E; [|reflexivity]. apply N.eqb_eq in E. subst j. unfold arch_at. rewrite Ha. cbn [option_map]. now rewrite Ec.
  - intros j b Hb. rewrite Hat in Hb. destruct (j =? ai) eqn:E; [|eauto]. apply N.eqb_eq in E. subst j. inversion Hb; subst b. eauto.
Qed.

(* entries of caches only disappear under a removal notification *)
Lemma notify_remove_with_entries w ai a hk h' p' q c' x : NoDup (a_refresh a) ->
  hlive (notify_remove_with w ai a) hk h' -> In p' (h_params h') -> pquery p' = Some (q, c') -> In x c' ->
  (forall hk0 h0 p0 q0 c0, hlive w hk0 h0 -> In p0 (h_params h0) -> pquery p0 = Some (q0, c0) -> idx_nodup c0) ->
  exists h p c, hlive w hk h /\ In p (h_params h) /\ pquery p = Some (q, c) /\ In x c.
Proof.
  intros Hnd Hl Hp Hq Hx Hnds. unfold hlive in Hl. rewrite (notify_remove_with_hs w ai a Hnd) in Hl.
  destruct (in_dec key_eq_dec hk (a_refresh a)).
  - destruct (sm_get hk (w_hs w)) as [h|] eqn:E; [|discriminate]. cbn in Hl. inversion Hl; subst h'. unfold h_remove_arch in Hp. cbn [h_params set_params] in Hp.
    apply in_map_iff in Hp as (p & <- & Hp). destruct (pquery_remove_inv ai p q c' Hq) as (c & Hqc & ->).
    exists h, p, c. split; [exact E|]. split; [exact Hp|]. split; [exact Hqc|]. apply (proj2 (cache_remove_spec c ai (Hnds hk h p q c E Hp Hqc))) in Hx. tauto.
  - exists h', p', c'. auto.
Qed.

(* what the notifications for archetype [ai], whose components and refresh set are those of [a], need of the caches
   before: an entry for [ai] only sits in a cache whose query matches [a], of a handler that listens to [a] *)
Definition dirty_ok (hs : smap hinfo) (ai : N) (a : arch) : Prop :=
  forall hk h p q c u e, sm_get hk hs = Some h -> In p (h_params h) -> pquery p = Some (q, c) -> In (ai, u, e) c ->
    amatch a q = true /\ In hk (a_refresh a).

Lemma dirty_ok_XI w ai a0 a : XI w -> arch_at w ai = Some a0 -> rview a = rview a0 -> dirty_ok (w_hs w) ai a.
Proof.
  intros (HF & HR & HP & _) Ha Er hk h p q c u e Hl Hp Hq Hin. unfold rview in Er. injection Er as Ec Err.
  destruct (HF hk h p q c Hl Hp Hq) as [_ Hg]. apply (Hg ai (fun X => X)) in Hin as (a1 & A & _ & Hm & _). rewrite Ha in A. inversion A; subst a1.
  split; [now rewrite (amatch_comps a0 a q Ec)|]. rewrite Err. apply (HR ai a0 Ha hk). exists h. split; [exact Hl|]. eapply HP; eauto.
Qed.

Lemma dirty_ok_notify_remove_with w ai a (D : N -> Prop) bi b : FIx w D -> NoDup (a_refresh a) ->
  dirty_ok (w_hs w) bi b -> dirty_ok (w_hs (notify_remove_with w ai a)) bi b.
Proof.
  intros HF Hnd K hk h' p' q c' u e Hl Hp Hq Hin.
  destruct (notify_remove_with_entries w ai a hk h' p' q c' (bi, u, e) Hnd Hl Hp Hq Hin) as (h & p & c & A & B & C & E);
    [intros hk0 h0 p0 q0 c0 X Y Z; exact (proj1 (HF hk0 h0 p0 q0 c0 X Y Z))|exact (K hk h p q c u e A B C E)].
Qed.

Lemma notify_refresh_FIx w ai a (S : N -> Prop) :
  arch_at w ai = Some a -> 0 < nlen (a_rows a) -> NoDup (a_refresh a) ->
  (forall hk, In hk (a_refresh a) <-> exists h, hlive w hk h /\ ca_matches (arch_has a) (h_archfilter h) = true) ->
  PInv w ->
  (forall hk h p q c, hlive w hk h -> In p (h_params h) -> pquery p = Some (q, c) -> amatch a q = false -> forall u e, ~ In (ai, u, e) c) ->
  FIx w (fun j => j = ai \/ S j) -> FIx (notify_refresh w ai) S.
Proof.
  intros Ha Hn Hnd Hrf HP Hne HF.
  assert (Hno : forall hk h p q c, hlive w hk h -> In p (h_params h) -> pquery p = Some (q, c) -> amatch a q = false -> good w q ai c).
  { intros hk h p q c Hl Hp Hq Em. apply good_none; [exact (Hne hk h p q c Hl Hp Hq Em)|]. intros a0 X _. rewrite Ha in X. now inversion X; subst. }
  intros hk h' p' q c' Hl Hp Hq. unfold hlive in Hl. rewrite (notify_refresh_hs w ai a Ha Hnd) in Hl.
  assert (Hext : forall j c, good w q j c -> good (notify_refresh w ai) q j c) by (intros j c; apply good_ext; now rewrite notify_refresh_arch_at).
  destruct (in_dec key_eq_dec hk (a_refresh a)) as [Hin|Hnin].
  - destruct (sm_get hk (w_hs w)) as [h|] eqn:E; [|discriminate]. cbn in Hl. inversion Hl; subst h'. clear Hl.
    unfold h_refresh in Hp. cbn [h_params set_params] in Hp. apply in_map_iff in Hp as (p & <- & Hp).
    destruct (pquery_refresh_inv ai a p q c' Hq) as (c & Hqc & ->). destruct (HF hk h p q c E Hp Hqc) as [Hnd0 Hg].
    split; [destruct (amatch a q); [exact (proj1 (cache_insert_spec c _ Hnd0))|exact Hnd0]|].
    intros j Hj. apply Hext. destruct (N.eq_dec j ai) as [->|Hne'].
    + destruct (amatch a q) eqn:Em; [now apply good_insert_same|exact (Hno hk h p q c E Hp Hqc Em)].
    + assert (Hg' : good w q j c) by (apply Hg; tauto).
      destruct (amatch a q); [apply (good_insert_other w q ai j c (ai, a_uid a, a_epoch a) Hnd0 Hne' eq_refl Hg')|exact Hg'].
  - destruct (HF hk h' p' q c' Hl Hp Hq) as [Hnd0 Hg]. split; [exact Hnd0|]. intros j Hj. apply Hext.
    destruct (N.eq_dec j ai) as [->|Hne']; [|apply Hg; tauto]. apply (Hno hk h' p' q c' Hl Hp Hq).
    destruct (amatch a q) eqn:Em; [|reflexivity]. exfalso. apply Hnin. apply Hrf. exists h'. split; [exact Hl|]. eapply HP; eauto.
Qed.

Lemma notify_refresh_XIx w ai a (D : N -> Prop) : arch_at w ai = Some a -> 0 < nlen (a_rows a) -> dirty_ok (w_hs w) ai a ->
  XIx w (fun j => j = ai \/ D j) -> XIx (notify_refresh w ai) D.
Proof.
  intros Ha Hn Hdk [HF HS]. pose proof HS as (HR & HP & HN).
  split; [|apply (RI_ext w); [intros hk; exact (sview_get hview2 _ _ hk (hview2_notify_refresh w ai))|intros j b Hb; rewrite notify_refresh_arch_at in Hb; eauto|exact HS]].
  apply (notify_refresh_FIx w ai a D Ha Hn (HN ai a Ha) (HR ai a Ha) HP); [|exact HF].
  intros hk h p q c Hl Hp Hq Em u e X. destruct (Hdk hk h p q c u e Hl Hp Hq X). congruence.
Qed.

Lemma notify_remove_with_FIx w ai a (S : N -> Prop) :
  (forall a', arch_at w ai = Some a' -> nlen (a_rows a') = 0) -> NoDup (a_refresh a) ->
  (forall hk h p q c u e, hlive w hk h -> In p (h_params h) -> pquery p = Some (q, c) -> In (ai, u, e) c -> In hk (a_refresh a)) ->
  FIx w (fun j => j = ai \/ S j) -> FIx (notify_remove_with w ai a) S.
Proof.
  intros Hemp Hnd Hcov HF hk h' p' q c' Hl Hp Hq. unfold hlive in Hl. rewrite (notify_remove_with_hs w ai a Hnd) in Hl.
  assert (Hno : forall a0, arch_at w ai = Some a0 -> 0 < nlen (a_rows a0) -> amatch a0 q = false) by (intros a0 X Y; rewrite (Hemp a0 X) in Y; lia).
  destruct (in_dec key_eq_dec hk (a_refresh a)) as [Hin|Hnin].
  - destruct (sm_get hk (w_hs w)) as [h|] eqn:E; [|discriminate]. cbn in Hl. inversion Hl; subst h'. clear Hl.
    unfold h_remove_arch in Hp. cbn [h_params set_params] in Hp. apply in_map_iff in Hp as (p & <- & Hp).
    destruct (pquery_remove_inv ai p q c' Hq) as (c & Hqc & ->). destruct (HF hk h p q c E Hp Hqc) as [Hnd0 Hg].
    split; [exact (proj1 (cache_remove_spec c ai Hnd0))|]. intros j Hj. change (good w q j (cache_remove c ai)).
    destruct (N.eq_dec j ai) as [->|Hne']; [now apply good_remove_same|]. apply good_remove_other; [exact Hnd0|exact Hne'|]. apply Hg. tauto.
  - destruct (HF hk h' p' q c' Hl Hp Hq) as [Hnd0 Hg]. split; [exact Hnd0|]. intros j Hj. change (good w q j c').
    destruct (N.eq_dec j ai) as [->|Hne']; [|apply Hg; tauto]. apply good_none; [|exact Hno]. intros u e X. apply Hnin. eapply Hcov; eauto.
Qed.

Lemma notify_remove_with_XIx w ai a (D : N -> Prop) : (forall a', arch_at w ai = Some a' -> nlen (a_rows a') = 0) -> NoDup (a_refresh a) ->
  dirty_ok (w_hs w) ai a -> XIx w (fun j => j = ai \/ D j) -> XIx (notify_remove_with w ai a) D.
Proof.
  intros Hemp Hnd Hdk [HF HS].
  split; [|apply (RI_ext w); [intros hk; exact (sview_get hview2 _ _ hk (hview2_notify_remove_with w ai a))|intros j b Hb; exists b; split; [exact Hb|reflexivity]|exact HS]].
  apply (notify_remove_with_FIx w ai a D Hemp Hnd); [|exact HF]. intros hk h p q c u e Hl Hp Hq X. exact (proj2 (Hdk hk h p q c u e Hl Hp Hq X)).
Qed.

(* the two conditional notifications of Archetypes::move_entity / remove_entity / spawn *)
Lemma maybe_remove_XIx w ai a (D : N -> Prop) : arch_at w ai = Some a -> dirty_ok (w_hs w) ai a ->
  XIx w (fun j => (j = ai /\ nlen (a_rows a) = 0) \/ D j) -> XIx (if nlen (a_rows a) =? 0 then notify_remove w ai else w) D.
Proof.
  intros Ha Hdk HX. destruct (nlen (a_rows a) =? 0) eqn:E0.
  - apply N.eqb_eq in E0. unfold notify_remove. unfold arch_at in Ha. rewrite Ha.
    apply notify_remove_with_XIx; [intros a' X; unfold arch_at in X; rewrite Ha in X; inversion X; subst; exact E0|exact (proj2 (proj2 (proj2 HX)) ai a Ha)|exact Hdk|].
    revert HX. apply XIx_weaken. intros j [[-> _]|X]; [now left|right; exact X].
  - apply N.eqb_neq in E0. revert HX. apply XIx_weaken. intros j [[_ X]|X]; [contradiction|exact X].
Qed.
Lemma maybe_refresh_XIx w ai a (D : N -> Prop) (b : bool) : arch_at w ai = Some a -> 0 < nlen (a_rows a) -> dirty_ok (w_hs w) ai a ->
  XIx w (fun j => (j = ai /\ b = true) \/ D j) -> XIx (if b then notify_refresh w ai else w) D.
Proof.
  intros Ha Hn Hdk HX. destruct b.
  - apply (notify_refresh_XIx w ai a D Ha Hn Hdk). revert HX. apply XIx_weaken. intros j [[-> _]|X]; [now left|right; exact X].
  - revert HX. apply XIx_weaken. intros j [[_ X]|X]; [discriminate|exact X].
Qed.

Lemma nlen_pos_get {A} (l : list A) i x : nget l i = Some x -> 0 < nlen l.
Proof. intros H. apply nget_some_lt in H. lia. Qed.
Lemma cview_nonempty a a' : a_comps a' = a_comps a -> a_uid a' = a_uid a -> a_epoch a' = a_epoch a ->
  0 < nlen (a_rows a') -> 0 < nlen (a_rows a) -> cview a' = cview a.
Proof. intros Ec Eu Ee A B. unfold cview. rewrite Ec, Eu, Ee. f_equal. apply N.ltb_lt in A, B. congruence. Qed.

(* Archetypes::move_entity: the rows of the source and the destination change, then the source's caches are told
   if it became empty, then the destination's if it became non-empty or its columns were reallocated *)
Lemma move_entity_XI w src dst nw w' : move_entity w src dst nw = ROk tt w' -> XI w -> XI w'.
Proof.
  intros Hm HX. destruct src as [sai srow]. revert Hm.
  destruct (move_entity_spec w sai srow dst nw) as [|sa e vals c v ci _ _ Hsa Hrow _|sa da e vals dvals killed Esd Hsa Hda Hrow _ _ _| | | | | |];
    intros [= <-]; [exact HX| |].
  - apply (XIx_set w _ sai sa (set_rows sa (nset (a_rows sa) srow (e, nset vals ci v))) (fun _ => False)); [|exact Hsa| |reflexivity| |exact HX];
      try (unfold overwritten; now rewrite (drop_all_eq _ w)).
    intros _. unfold cview. cbn [a_comps a_uid a_epoch a_rows set_rows]. now rewrite nlen_nset.
  - unfold moved. set (sa1 := taken sa srow). set (da2 := pushed da (e, dvals)). set (w4 := row_moved _ _ _ _ _ _ _ _ _ _).
    assert (Hs4 : w_hs w4 = w_hs w) by (unfold w4, row_moved; now rewrite rebuilt_eq).
    assert (Hda4 : arch_at w4 dst = Some da2) by (eapply slab_get_set_eq; rewrite slab_get_set_neq by exact Esd; exact Hda).
    assert (Hsa4 : arch_at w4 sai = Some sa1) by (unfold arch_at, w4; cbn; rewrite slab_get_set_neq by (apply not_eq_sym; exact Esd); eapply slab_get_set_eq; exact Hsa).
    assert (Hlen2 : nlen (a_rows da2) = nlen (a_rows da) + 1) by (unfold da2; now rewrite pushed_rows, nlen_app).
    assert (Er2 : rview da2 = rview da) by now apply pushed_view.
    cbv zeta. set (b := snd (reserve_one da) || (nlen (a_rows da2) =? 1)). set (D5 := fun j => (j = dst /\ b = true) \/ False).
    (* the rows have changed, no cache has *)
    assert (X : XIx w4 (fun j => (j = sai /\ nlen (a_rows sa1) = 0) \/ D5 j)).
    { apply (XIx_set (set_archs w (slab_set (w_archs w) sai sa1)) w4 dst da da2); [exact Hs4|cbn [w_archs set_archs]; rewrite slab_get_set_neq by exact Esd; exact Hda|reflexivity|exact Er2| |].
      - intros Hj. assert (Eb : b = false) by (destruct b; [exfalso; apply Hj; right; left; auto|reflexivity]). apply orb_false_iff in Eb as [E1 E2]. apply N.eqb_neq in E2.
        apply cview_nonempty; [now apply pushed_view|now apply pushed_view|exact (pushed_epoch da _ E1)|lia|lia].
      - apply (XIx_set w _ sai sa sa1); [reflexivity|exact Hsa|reflexivity|reflexivity| |exact (XIx_of_XI w _ HX)].
        intros Hj. apply cview_nonempty; try reflexivity; [|eapply nlen_pos_get; eauto].
        assert (Hn0 : nlen (a_rows sa1) <> 0) by (intros X; apply Hj; left; auto). lia. }
    assert (Kd : dirty_ok (w_hs w4) dst da2) by (rewrite Hs4; exact (dirty_ok_XI w dst da da2 HX Hda Er2)).
    set (w5 := if nlen (a_rows sa1) =? 0 then notify_remove w4 sai else w4).
    apply (maybe_refresh_XIx w5 dst da2 (fun _ => False) b); unfold w5.
    + destruct (nlen (a_rows sa1) =? 0); [unfold arch_at; rewrite notify_remove_eq|]; exact Hda4.
    + lia.
    + destruct (nlen (a_rows sa1) =? 0); [|exact Kd]. unfold notify_remove. unfold arch_at in Hsa4. rewrite Hsa4.
      exact (dirty_ok_notify_remove_with w4 sai sa1 _ dst da2 (proj1 X) (proj2 (proj2 (proj2 HX)) sai sa Hsa) Kd).
    + apply (maybe_remove_XIx w4 sai sa1 D5 Hsa4); [rewrite Hs4; exact (dirty_ok_XI w sai sa sa1 HX Hsa eq_refl)|exact X].
Qed.

Lemma remove_entity_XI w loc w' : remove_entity w loc = ROk tt w' -> XI w -> XI w'.
Proof.
  intros Hm HX. destruct loc as [ai row]. revert Hm. destruct (remove_entity_spec w ai row) as [a e vals v m' Ha Hrow _ _| | | |]; intros [= <-].
  unfold removed. set (a1 := taken a row). set (w4 := row_out _ _ _ _ _ _).
  assert (Hs4 : w_hs w4 = w_hs w) by (unfold w4, row_out; now rewrite rebuilt_eq).
  apply (maybe_remove_XIx w4 ai a1 (fun _ => False)); [eapply slab_get_set_eq; exact Ha|rewrite Hs4; exact (dirty_ok_XI w ai a a1 HX Ha eq_refl)|].
  apply (XIx_set w w4 ai a a1); [exact Hs4|exact Ha|reflexivity|reflexivity| |exact (XIx_of_XI w _ HX)].
  intros Hj. apply cview_nonempty; try reflexivity; [|eapply nlen_pos_get; eauto].
  assert (Hn0 : nlen (a_rows a1) <> 0) by (intros X; apply Hj; left; auto). lia.
Qed.

Lemma arch_spawn_XI w e : XI w -> XI (snd (arch_spawn w e)).
Proof.
  intros HX. rewrite arch_spawn_eq. cbn [snd]. destruct (slab_get (w_archs w) 0) as [a0|] eqn:Ha; [|exact HX].
  unfold row_spawned. set (a2 := pushed a0 (e, [])). set (w1 := set_archs w (slab_set (w_archs w) 0 a2)).
  assert (Er : rview a2 = rview a0) by now apply pushed_view.
  assert (Hlen2 : nlen (a_rows a2) = nlen (a_rows a0) + 1) by (unfold a2; now rewrite pushed_rows, nlen_app).
  cbv zeta. set (b := (nlen (a_rows a2) =? 1) || snd (reserve_one a0)).
  apply (maybe_refresh_XIx w1 0 a2 (fun _ => False) b); [eapply slab_get_set_eq; exact Ha|lia|exact (dirty_ok_XI w 0 a0 a2 HX Ha Er)|].
  apply (XIx_set w w1 0 a0 a2); [reflexivity|exact Ha|reflexivity|exact Er| |exact (XIx_of_XI w _ HX)].
  intros Hj. assert (Eb : b = false) by (destruct b; [exfalso; apply Hj; left; auto|reflexivity]). apply orb_false_iff in Eb as [E1 E2]. apply N.eqb_neq in E1.
  apply cview_nonempty; [now apply pushed_view|now apply pushed_view|exact (pushed_epoch a0 _ E2)|lia|lia].
Qed.

Lemma XI_set_ents w x : XI w -> XI (set_ents w x). Proof. intros H. exact H. Qed.

Lemma spawn_all_n_XI n : forall w, XI w -> XI (res_world (spawn_all_n n w)).
Proof. apply (spawn_all_n_keeps XI). intros w0 k ents' _. apply arch_spawn_XI. Qed.
Lemma spawn_all_XI w : XI w -> XI (res_world (spawn_all w)).
Proof. apply (spawn_all_keeps XI); [|auto]. intros w0 k ents' _. apply arch_spawn_XI. Qed.

Lemma upd_edges_XI w ai i r : XI w -> XI (upd_arch w ai (fun a => set_edges a (i a) (r a))).
Proof.
  intros HX. unfold upd_arch. destruct (slab_get (w_archs w) ai) as [a|] eqn:Ha; [|exact HX].
  apply (XIx_set w _ ai a (set_edges a (i a) (r a)) (fun _ => False)); [reflexivity|exact Ha|reflexivity|reflexivity|intros _; reflexivity|exact HX].
Qed.

Lemma kset_insert_in k l x : In x (kset_insert k l) <-> x = k \/ In x l.
Proof.
  induction l as [|h t IH]; cbn [kset_insert]; [cbn; split; [intros [<-|[]]; now left|intros [->|[]]; now left]|]. destruct (key_eqb k h) eqn:E.
  - apply key_eqb_spec in E. subst h. cbn [In]. split; [now right|]. intros [->|X]; [now left|exact X].
  - destruct (key_ltb k h); cbn [In].
    + split; [intros [<-|X]; [now left|now right]|intros [->|X]; [now left|now right]].
    + rewrite IH. split; [intros [X|[X|X]]; auto|intros [X|[X|X]]; auto].
Qed.
Lemma kset_insert_nodup k l : NoDup l -> ~ In k l -> NoDup (kset_insert k l).
Proof.
  induction l as [|h t IH]; cbn [kset_insert]; intros Hnd Hn; [constructor; [intros []|constructor]|]. destruct (key_eqb k h) eqn:E.
  - apply key_eqb_spec in E. subst h. exfalso. apply Hn. now left.
  - destruct (key_ltb k h); [constructor; assumption|]. inversion Hnd; subst. constructor.
    + rewrite kset_insert_in. intros [->|X]; [apply Hn; now left|contradiction].
    + apply IH; [assumption|]. intros X. apply Hn. now right.
Qed.
Lemma kset_remove_in k l x : In x (kset_remove k l) <-> In x l /\ x <> k.
Proof.
  unfold kset_remove. rewrite filter_In. split; intros [A B]; (split; [exact A|]).
  - intros ->. assert (key_eqb k k = true) by now apply key_eqb_spec. rewrite H in B. discriminate.
  - apply negb_true_iff. now apply key_eqb_neq.
Qed.
Lemma kset_remove_nodup k l : NoDup l -> NoDup (kset_remove k l).
Proof. intros H. unfold kset_remove. now apply NoDup_filter. Qed.

(* RfInv and RN, set by set *)
Lemma RfRN_lists w : RfInv w /\ RN w <->
  forall ai a, arch_at w ai = Some a -> lholds (a_refresh a) (hmatch (w_hs w) (fun h => ca_matches (arch_has a) (h_archfilter h))).
Proof.
  unfold RfInv, RN, lholds, hmatch, hlive. split; [intros [A B] ai a Ha; split; [eapply B; eauto|exact (A ai a Ha)]|].
  intros H. split; intros ai a Ha; apply (H ai a Ha).
Qed.

Lemma reg_refresh ai a h : a_refresh (fst (register_handler ai a h)) = if ca_matches (arch_has a) (h_archfilter h) then kset_insert (h_key h) (a_refresh a) else a_refresh a.
Proof. now rewrite register_handler_fst. Qed.
Lemma reg_cview ai a h : cview (fst (register_handler ai a h)) = cview a.
Proof. now rewrite register_handler_fst. Qed.
Lemma reg_params ai a h : h_params (snd (register_handler ai a h)) =
  if ca_matches (arch_has a) (h_archfilter h) && (0 <? nlen (a_rows a)) then map (param_refresh ai a) (h_params h) else h_params h.
Proof. rewrite register_handler_snd. now destruct (_ && _). Qed.
Lemma reg_empty ai a h : nlen (a_rows a) = 0 -> snd (register_handler ai a h) = h /\ a_rows (fst (register_handler ai a h)) = a_rows a.
Proof. intros H0. rewrite register_handler_fst, register_handler_snd, H0, andb_false_r. now split. Qed.
Lemma upd_key_same_get {V} (m : smap V) k v x : sm_get k m = Some v -> sm_get x (upd_by_key m k (fun _ => v)) = sm_get x m.
Proof. intros H. now rewrite (upd_by_key_same m k v H). Qed.

(* create_arch: the refresh set of the new archetype *)
Lemma regs_a_refresh hs (L : list (N * key)) : forall a, NoDup (map snd L) ->
  (forall x, In x (map snd L) -> ~ In x (a_refresh a)) -> (forall hk h, sm_get hk hs = Some h -> h_key h = hk) -> NoDup (a_refresh a) ->
  NoDup (a_refresh (regs_a hs L a)) /\
  forall x, In x (a_refresh (regs_a hs L a)) <->
            In x (a_refresh a) \/ (In x (map snd L) /\ exists h, sm_get x hs = Some h /\ ca_matches (arch_has a) (h_archfilter h) = true).
Proof.
  induction L as [|[o hk] L IH]; intros a Hnd Hfr Hkey Hnda; [split; [exact Hnda|]; intros x; cbn; tauto|].
  rewrite regs_a_cons. cbn [map snd] in *. inversion Hnd as [|? ? Hni Hnd']; subst.
  assert (Hfr' : forall x, In x (map snd L) -> ~ In x (a_refresh a)) by (intros x Hx; apply Hfr; now right).
  destruct (sm_get hk hs) as [h|] eqn:E.
  - pose proof (Hkey hk h E) as Hk.
    assert (Erf : a_refresh (reg_arch h a) = if ca_matches (arch_has a) (h_archfilter h) then kset_insert hk (a_refresh a) else a_refresh a) by (rewrite <- Hk; reflexivity).
    destruct (IH (reg_arch h a) Hnd') as (D & F).
    + intros x Hx X. rewrite Erf in X. destruct (ca_matches _ _); [apply kset_insert_in in X as [->|X]; [contradiction|]|]; exact (Hfr' x Hx X).
    + exact Hkey.
    + rewrite Erf. destruct (ca_matches _ _); [|exact Hnda]. apply kset_insert_nodup; [exact Hnda|]. apply Hfr. now left.
    + split; [exact D|]. intros x. rewrite F, Erf. change (arch_has (reg_arch h a)) with (arch_has a). destruct (ca_matches (arch_has a) (h_archfilter h)) eqn:Em.
      * rewrite kset_insert_in. split.
        -- intros [[->|X]|[X Y]]; [right; split; [now left|eauto]|now left|right; split; [now right|exact Y]].
        -- intros [X|[[<-|X] Y]]; [left; now right|left; now left|right; auto].
      * split.
        -- intros [X|[X Y]]; [now left|right; split; [now right|exact Y]].
        -- intros [X|[[<-|X] (h0 & Y & Z)]]; [now left|rewrite E in Y; inversion Y; subst; congruence|right; eauto].
  - destruct (IH a Hnd' Hfr' Hkey Hnda) as (D & F). split; [exact D|]. intros x. rewrite F. split; [intros [X|[X Y]]; [now left|right; split; [now right|exact Y]]|].
    intros [X|[[<-|X] Y]]; [now left| |right; auto]. destruct Y as (h0 & Y & _). congruence.
Qed.

Lemma reg_fold_empty ai (L : list (N * key)) : forall a hs, nlen (a_rows a) = 0 -> NoDup (map snd L) ->
  (forall x, In x (map snd L) -> ~ In x (a_refresh a)) -> (forall hk h, sm_get hk hs = Some h -> h_key h = hk) -> NoDup (a_refresh a) ->
  let r := fold_left (reg_step ai) L (a, hs) in
  (forall x, sm_get x (snd r) = sm_get x hs) /\ nlen (a_rows (fst r)) = 0 /\ a_comps (fst r) = a_comps a /\ NoDup (a_refresh (fst r)) /\
  forall x, In x (a_refresh (fst r)) <-> In x (a_refresh a) \/ (In x (map snd L) /\ exists h, sm_get x hs = Some h /\ ca_matches (arch_has a) (h_archfilter h) = true).
Proof.
  intros a hs H0 Hnd Hfr Hkey Hnda. cbv zeta. rewrite (reg_fold_new ai L hs a H0). cbn [fst snd]. rewrite (regs_a_tables hs L a) at 1 2.
  split; [reflexivity|split; [exact H0|split; [reflexivity|exact (regs_a_refresh hs L a Hnd Hfr Hkey Hnda)]]].
Qed.

Lemma create_arch_XI w cs ins rem : HInv w -> SlabInv (w_archs w) -> XI w -> XI (snd (create_arch w cs ins rem)).
Proof.
  intros (S & H1 & H2 & H3 & H4) Hs (HF & HR & HP & HN). destruct (create_arch_at w cs ins rem Hs) as [Hvac Hat]. unfold arch_at in Hvac. revert Hat. rewrite create_arch_eq. cbn [snd].
  set (vk := slab_vacant_key (w_archs w)) in *. set (a0 := mkA (w_auid w) cs [] 0 0 ins rem [] []). set (a1 := regs_a (w_hs w) (w_horder w) a0).
  match goal with |- _ -> XI ?x => set (w1 := x) end. intros Hat.
  destruct (regs_a_refresh (w_hs w) (w_horder w) a0 H3) as (D & F); [intros x _ []|intros hk h X; exact (proj1 (H1 hk h X))|constructor|]. fold a1 in D, F.
  assert (B : a_rows a1 = [] /\ a_comps a1 = cs) by (unfold a1; rewrite regs_a_tables; split; reflexivity).
  split; [|split; [|split; [exact HP|]]].
  - intros hk h p q c X Y Z. destruct (HF hk h p q c X Y Z) as [Hnd Hg]. split; [exact Hnd|]. intros j _. destruct (N.eq_dec j vk) as [->|Hne].
    + apply good_none.
      * intros u e Hin. apply (Hg vk (fun X => X)) in Hin as (a & Ha & _). unfold arch_at in Ha. congruence.
      * intros a Ha Hpos. rewrite Hat, N.eqb_refl in Ha. inversion Ha; subst a. rewrite (proj1 B) in Hpos. cbn in Hpos. lia.
    + apply (good_ext w); [rewrite Hat; now replace (j =? vk) with false by (symmetry; now apply N.eqb_neq)|]. now apply Hg.
  - intros ai a Ha hk. rewrite Hat in Ha. destruct (ai =? vk) eqn:E; [|exact (HR ai a Ha hk)].
    inversion Ha; subst a. rewrite F. unfold arch_has. rewrite (proj2 B). split.
    + intros [[]|[_ X]]. exact X.
    + intros (h & X & Y). right. split; [|eauto]. destruct (H1 hk h X) as (_ & Hin & _). apply in_map_iff. exists (h_order h, hk). auto.
  - intros j a Ha. rewrite Hat in Ha. destruct (j =? vk); [inversion Ha; subst; exact D|eapply HN; eauto].
Qed.

Lemma traverse_insert_XI w src c : HInv w -> SlabInv (w_archs w) -> XI w -> XI (res_world (traverse_insert w src c)).
Proof. intros HH Hs HX. apply (traverse_insert_keeps XI); [intros; now apply upd_edges_XI|intros; now apply create_arch_XI|exact HX]. Qed.
Lemma traverse_remove_XI w src c : HInv w -> SlabInv (w_archs w) -> XI w -> XI (res_world (traverse_remove w src c)).
Proof. intros HH Hs HX. apply (traverse_remove_keeps XI); [intros; now apply upd_edges_XI|intros; now apply create_arch_XI|exact HX]. Qed.

Lemma builtin_effect_XI kind ev loc w e :
  WInv w -> HInv w -> XI w -> (targeted_kind kind = true -> sm_get e (w_ents w) = Some loc) -> XI (res_world (builtin_effect kind ev loc w)).
Proof.
  intros HW HH HX _. pose proof (proj1 (proj1 (proj2 HW))) as Hs.
  apply (builtin_effect_keeps_ok XI); [exact HW|intros c _; now apply traverse_insert_XI|intros c _; now apply traverse_remove_XI| |exact spawn_all_XI| |exact HX].
  - intros w1 d nw w2. apply move_entity_XI.
  - intros w1 w2. exact (remove_entity_XI w1 loc w2).
Qed.

Lemma structureL_arch w w' : structureL w' = structureL w -> w_hs w' = w_hs w /\
  (forall j, option_map cview (arch_at w' j) = option_map cview (arch_at w j)) /\ (forall j, option_map rview (arch_at w' j) = option_map rview (arch_at w j)).
Proof.
  unfold structureL. intros H. injection H as Hhs _ _ _ _ _ _ _ Hsh _ _. split; [exact Hhs|].
  split; apply aview_arch_at; revert Hsh; apply map_eq_factor; intros [a|n] [a'|n'] E; cbn [ashapeL aview_entry] in *; try congruence;
    injection E as Eu _ Ee Eco Er _ _ Erf _; f_equal.
  - unfold cview. rewrite Eu, Ee, Eco. f_equal. unfold nlen. now rewrite <- (map_length rshape (a_rows a')), Er, map_length.
  - unfold rview. now rewrite Eco, Erf.
Qed.

Lemma XI_ev_drop w t tag ev : XI w -> XI (ev_drop w t tag ev).
Proof. destruct (structureL_arch w (ev_drop w t tag ev) (sl_ev_drop w t tag ev)) as (A & B & C). now apply XI_ext. Qed.

(* each kind of step sends the notifications that keep the caches exact; a new archetype is empty *)
Lemma XI_stable : stable HL XI.
Proof.
  intros w w' [w0 w1 [w2 w3 [A _]|w2 ai i r|w2 src dst nw w3 E|w2 loc w3 E|w2]|w0 cs i r Hs _ _] HH HX.
  - destruct (structureL_arch w2 w3 A) as (A1 & A2 & A3). now apply (XI_ext w2).
  - now apply upd_edges_XI.
  - exact (move_entity_XI _ _ _ _ _ E HX).
  - exact (remove_entity_XI _ _ _ E HX).
  - now apply spawn_all_XI.
  - exact (create_arch_XI w0 cs i r (proj1 HH) Hs HX).
Qed.

Theorem deliver_one_XI beh it w : WInv w -> GevKinds w -> HL w -> XI w -> XI (snd (fst (deliver_one beh it w))).
Proof. intros HW _ HH HX. exact (proj2 (stable_deliver_one beh _ (stable_and _ _ HL_stable XI_stable) it w HW (conj HH HX))). Qed.

Lemma remove_handler_entry_XI w k h hs' gl hby ho :
  HInv w -> XI w -> sm_remove k (w_hs w) = Some (h, hs') -> XI (archs_remove_handler (set_hreg w hs' gl hby (w_hctr w) ho) h).
Proof.
  intros (S & H1 & _) (HF & HR & HP & HN) Er. set (w3 := archs_remove_handler _ h).
  pose proof (remove_get_self k (w_hs w) h hs' Er) as Hk. destruct (H1 k h Hk) as (Hkk & _).
  assert (Hgone : sm_get k hs' = None) by (eapply remove_get_gone; eauto).
  assert (Hoth : forall x, x <> k -> sm_get x hs' = sm_get x (w_hs w)) by (intros; eapply remove_get_other; eauto).
  assert (Hl : forall x h0, hlive w3 x h0 -> hlive w x h0).
  { intros x h0 X. unfold hlive in *. change (w_hs w3) with hs' in X. rewrite <- Hoth; [exact X|]. intros ->. congruence. }
  assert (Hat : forall j, arch_at w3 j = option_map (rm_arch h) (arch_at w j)) by (intros j; unfold w3; now rewrite archs_remove_handler_at).
  assert (HRN : RfInv w3 /\ RN w3).
  { apply RfRN_lists. intros ai a3 Ha3. rewrite Hat in Ha3. destruct (arch_at w ai) as [a|] eqn:Ha; [|discriminate]. injection Ha3 as <-.
    destruct (proj1 (RfRN_lists w) (conj HR HN) ai a Ha) as [Hnd Hm].
    apply (lholds_exit (w_hs w) hs' k (fun h => ca_matches (arch_has a) (h_archfilter h)) (a_refresh a) _ Hgone Hoth (conj Hnd Hm));
      cbn [a_refresh rm_arch set_tables]; rewrite Hkk; [now apply kset_remove_nodup|intros x; apply kset_remove_in]. }
  split; [|split; [exact (proj1 HRN)|split; [|exact (proj2 HRN)]]].
  - intros hk h0 p q c X Y Z. apply Hl in X. destruct (HF hk h0 p q c X Y Z) as [Hnd Hg]. split; [exact Hnd|]. intros j _. apply (good_ext w); [|now apply Hg].
    rewrite Hat. destruct (arch_at w j); reflexivity.
  - intros hk h0 p q c X Y Z a Hm. apply Hl in X. eapply HP; eauto.
Qed.
Lemma handler_exit_XI w k h w2 : HInv w -> XI w -> handlers_remove w k = Some (h, w2) -> XI (archs_remove_handler w2 h).
Proof. intros HH HX Eh. destruct (handlers_remove_inv w k h w2 Eh) as (hs' & Er & ->). now apply (remove_handler_entry_XI w k h hs'). Qed.

Lemma rc_step_hs cidx ctag w ai a : slab_get (w_archs w) ai = Some a ->
  w_hs (rc_step cidx ctag w ai) = w_hs (notify_remove_with (set_archs w (slab_remove (w_archs w) ai)) ai a).
Proof. intros Ha. now destruct (rc_step_eq cidx ctag w ai a Ha) as (D & ->). Qed.
Lemma rc_step_XI cidx ctag w ai : SlabInv (w_archs w) -> XI w -> XI (rc_step cidx ctag w ai).
Proof.
  intros Hs HX. apply rc_step_cases; [now intros _|]. intros a D Ha. set (w1 := set_archs w (slab_remove (w_archs w) ai)).
  assert (Hat1 : forall j, arch_at w1 j = if j =? ai then None else arch_at w j).
  { intros j. rewrite <- (rc_step_arch_at cidx ctag w ai j). destruct (rc_step_eq cidx ctag w ai a Ha) as (D' & ->). reflexivity. }
  (* the archetype has gone, its entries are still in the caches *)
  assert (X2 : XI (notify_remove_with w1 ai a)).
  { apply notify_remove_with_XIx; [intros a' X; rewrite Hat1, N.eqb_refl in X; discriminate|exact (proj2 (proj2 (proj2 HX)) ai a Ha)|exact (dirty_ok_XI w ai a a HX Ha eq_refl)|].
    apply (XIx_rows w w1); [reflexivity| | |exact (XIx_of_XI w _ HX)].
    - intros j Hj. rewrite Hat1. destruct (j =? ai) eqn:E; [apply N.eqb_eq in E; exfalso; apply Hj; now left|reflexivity].
    - intros j b Hb. rewrite Hat1 in Hb. destruct (j =? ai); [discriminate|eauto]. }
  (* the remaining record updates touch neither the registry nor the archetypes *)
  revert X2. apply XI_ext; reflexivity.
Qed.

Lemma strip_XI cidx w : XI w -> XI (strip cidx w).
Proof. apply XI_ext; [reflexivity| |]; intros j; rewrite strip_arch_at; destruct (arch_at w j); reflexivity. Qed.

Lemma archs_remove_component_XI cidx ctag w l : WInv w -> NoDup l -> (forall ai a, arch_at w ai = Some a -> (In ai l <-> In cidx (a_comps a))) ->
  XI w -> XI (archs_remove_component w cidx ctag l).
Proof.
  intros HW _ Hmem HX. rewrite archs_remove_component_unfold.
  assert (Hin : forall ai a, In ai l -> arch_at w ai = Some a -> has_c cidx a) by (intros ai a Hi Ha; now apply (Hmem ai a Ha)).
  generalize (proj2 (rc_fold cidx ctag XI (fun w0 ai a HJ HX0 _ _ => rc_step_XI cidx ctag w0 ai (proj1 (proj2 HJ)) HX0) l w (WInv_J cidx w HW) Hin HX)).
  apply XI_ext; [reflexivity| |]; intros j; rewrite strip_arch_at; destruct (arch_at _ j); reflexivity.
Qed.

(* add_handler: the new handler's caches are filled archetype by archetype *)
Lemma good_same_entries w q j c1 c2 : (forall u e, In (j, u, e) c2 <-> In (j, u, e) c1) -> good w q j c1 -> good w q j c2.
Proof. intros H G u e. rewrite H. apply G. Qed.

Definition pstate (w : world) (done : N -> Prop) (todo : N -> Prop) (ps0 ps : list rparam) : Prop :=
  forall p' q c', In p' ps -> pquery p' = Some (q, c') ->
    exists p c, In p ps0 /\ pquery p = Some (q, c) /\ idx_nodup c' /\
      (forall j, done j -> good w q j c') /\ (forall j u e, ~ done j -> (In (j, u, e) c' <-> In (j, u, e) c)).

Lemma pstate_ext w w' (d d' t t' : N -> Prop) ps0 ps : (forall j, d' j <-> d j) ->
  (forall j, option_map cview (arch_at w' j) = option_map cview (arch_at w j)) -> pstate w d t ps0 ps -> pstate w' d' t' ps0 ps.
Proof.
  intros Hd Hcv H p' q c' A B. destruct (H p' q c' A B) as (p & c & P1 & P2 & P3 & P4 & P5). exists p, c. split; [exact P1|]. split; [exact P2|]. split; [exact P3|]. split.
  - intros j X. apply (good_ext w); [apply Hcv|]. apply P4. now apply Hd.
  - intros j u e X. apply P5. intros Y. apply X. now apply Hd.
Qed.
Lemma pstate_skip w (d t : N -> Prop) ps0 ps ai : (forall p q c, In p ps0 -> pquery p = Some (q, c) -> forall u e, ~ In (ai, u, e) c) -> ~ d ai ->
  (forall p q c, In p ps0 -> pquery p = Some (q, c) -> forall a, arch_at w ai = Some a -> 0 < nlen (a_rows a) -> amatch a q = false) ->
  pstate w d t ps0 ps -> pstate w (fun j => d j \/ j = ai) t ps0 ps.
Proof.
  intros Hno Hd Hnm H p' q c' A B. destruct (H p' q c' A B) as (p & c & P1 & P2 & P3 & P4 & P5). exists p, c. split; [exact P1|]. split; [exact P2|]. split; [exact P3|]. split.
  - intros j [X | ->]; [now apply P4|]. apply good_none; [|exact (Hnm p q c P1 P2)]. intros u e X. apply (P5 ai u e Hd) in X. exact (Hno p q c P1 P2 u e X).
  - intros j u e X. apply P5. intros Y. apply X. now left.
Qed.

(* the caches of a handler that is registered with the archetypes of [l], one after the other, in a world that stays as it is *)
Lemma regs_h_pstate w (l : list N) : NoDup l -> forall h ps0,
  (forall p q c, In p ps0 -> pquery p = Some (q, c) -> idx_nodup c /\ forall j u e, In j l -> ~ In (j, u, e) c) ->
  (forall p q c, In p ps0 -> pquery p = Some (q, c) -> forall a, amatch a q = true -> ca_matches (arch_has a) (h_archfilter h) = true) ->
  forall done0 : N -> Prop, (forall j, done0 j -> ~ In j l) -> pstate w done0 (fun _ => True) ps0 (h_params h) ->
  pstate w (fun j => done0 j \/ In j l) (fun _ => True) ps0 (h_params (regs_h w l h)).
Proof.
  induction l as [|ai l IH]; intros Hnd h ps0 H0 Hpi done0 Hd0 Hps; cbn [regs_h fold_left].
  - revert Hps. apply pstate_ext; [intros j; cbn [In]; tauto|reflexivity].
  - inversion Hnd as [|? ? Hni Hnd']; subst.
    assert (Hno : forall p q c, In p ps0 -> pquery p = Some (q, c) -> forall u e, ~ In (ai, u, e) c) by (intros p q c A B u e; exact (proj2 (H0 p q c A B) ai u e (or_introl eq_refl))).
    assert (Hai : ~ done0 ai) by (intros X; apply (Hd0 ai X); now left).
    set (h' := match arch_at w ai with Some a => snd (register_handler ai a h) | None => h end).
    assert (Ha' : h_archfilter h' = h_archfilter h) by (unfold h'; destruct (arch_at w ai) as [a|]; [exact (f_equal h_archfilter (register_handler_static ai a h))|reflexivity]).
    (* the state of the parameters after this archetype *)
    assert (Hps1 : pstate w (fun j => done0 j \/ j = ai) (fun _ => True) ps0 (h_params h')).
    { unfold h'. destruct (arch_at w ai) as [a|] eqn:Ha.
      2:{ apply pstate_skip; [exact Hno|exact Hai| |exact Hps]. intros p q c _ _ a0 A0. congruence. }
      rewrite register_handler_snd. destruct (ca_matches (arch_has a) (h_archfilter h) && (0 <? nlen (a_rows a))) eqn:Ecase.
      - apply andb_true_iff in Ecase as [Em En]. apply N.ltb_lt in En. intros p' q c' A B. apply in_map_iff in A as (p1 & <- & A).
        destruct (pquery_refresh_inv ai a p1 q c' B) as (c1 & Hq1 & ->). destruct (Hps p1 q c1 A Hq1) as (p & c & P1 & P2 & P3 & P4 & P5).
        exists p, c. split; [exact P1|]. split; [exact P2|].
        destruct (amatch a q) eqn:Emq.
        + split; [exact (proj1 (cache_insert_spec c1 _ P3))|]. split.
          * intros j [X | ->]; [apply (good_insert_other w q ai j c1 (ai, a_uid a, a_epoch a) P3); [intros ->; contradiction|reflexivity|now apply P4]|].
            apply good_insert_same; [exact P3|exact Ha|exact En|exact Emq].
          * intros j u e X. rewrite (proj2 (cache_insert_spec c1 (ai, a_uid a, a_epoch a) P3)). cbn [ce_idx fst]. rewrite <- (P5 j u e) by (intros Y; apply X; now left). split.
            -- intros [Y|[Y _]]; [inversion Y; subst; exfalso; apply X; now right|exact Y].
            -- intros Y. right. split; [exact Y|]. intros ->. apply X. now right.
        + split; [exact P3|]. split.
          * intros j [X | ->]; [now apply P4|]. apply good_none; [|intros a0 A0 _; rewrite Ha in A0; now inversion A0; subst].
            intros u e X. apply (P5 ai u e Hai) in X. exact (Hno p q c P1 P2 u e X).
          * intros j u e X. apply P5. intros Y. apply X. now left.
      - apply pstate_skip; [exact Hno|exact Hai| |exact Hps]. intros p q c P1 P2 a0 A0 Hpos. rewrite Ha in A0. inversion A0; subst a0.
        destruct (amatch a q) eqn:Emq; [|reflexivity]. exfalso. rewrite (Hpi p q c P1 P2 a Emq) in Ecase. cbn [andb] in Ecase. apply N.ltb_ge in Ecase. lia. }
    specialize (IH Hnd' h' ps0). fold (regs_h w l h') in IH |- *. eapply pstate_ext; [| |apply (IH) with (done0 := fun j => done0 j \/ j = ai)]; [intros j; cbn [In]; intuition congruence|reflexivity| | | |exact Hps1].
    + intros p q c A B. destruct (H0 p q c A B) as [X Y]. split; [exact X|]. intros j u e Hj. apply Y. now right.
    + rewrite Ha'. exact Hpi.
    + intros j [X | ->]; [intros Y; apply (Hd0 j X); now right|exact Hni].
Qed.

Lemma arh_fold_params hk (L : list (N * arch)) : NoDup (map fst L) -> forall w' h0 ps0,
  sm_get hk (w_hs w') = Some h0 ->
  (forall p q c, In p ps0 -> pquery p = Some (q, c) -> idx_nodup c /\ forall j u e, In j (map fst L) -> ~ In (j, u, e) c) ->
  (forall p q c, In p ps0 -> pquery p = Some (q, c) -> forall a, amatch a q = true -> ca_matches (arch_has a) (h_archfilter h0) = true) ->
  forall done0 : N -> Prop, (forall j, done0 j -> ~ In j (map fst L)) -> pstate w' done0 (fun _ => True) ps0 (h_params h0) ->
  let wf := fold_left (arh_step hk) L w' in
  exists hf, sm_get hk (w_hs wf) = Some hf /\ hstat hf = hstat h0 /\
    pstate w' (fun j => done0 j \/ In j (map fst L)) (fun _ => True) ps0 (h_params hf).
Proof.
  intros Hnd w' h0 ps0 Hg H0 Hpi done0 Hd0 Hps. cbn zeta. unfold arh_step. rewrite (arh_fold_eq hk h0 L Hnd w' h0 Hg eq_refl).
  exists (regs_h w' (map fst L) h0). split; [exact (upd_key_get_self _ hk _ h0 Hg)|]. split; [exact (regs_h_static w' _ h0)|].
  now apply regs_h_pstate.
Qed.

Lemma add_handler_entry_XI w1 (f : key -> hinfo) k hs gl hby hc ho :
  HInv w1 -> XI w1 -> insert_with f (w_hs w1) = Some (k, hs) -> h_key (f k) = k ->
  (forall p q c, In p (h_params (f k)) -> pquery p = Some (q, c) -> c = [] /\ forall a, amatch a q = true -> ca_matches (arch_has a) (h_archfilter (f k)) = true) ->
  XI (archs_register_handler (set_hreg w1 hs gl hby hc ho) k).
Proof.
  intros (S & H1 & _) (HF & HR & HP & HN) Ei Fk Hnewp. rewrite (entry_eq w1 f k hs gl hby hc ho S Ei).
  set (hnew := f k) in *. set (l := map fst (slab_iter (w_archs w1))). set (hf := reg_all_h w1 hnew).
  destruct (insert_upd_spec f (w_hs w1) k hs hf S Ei) as (Hfr & _ & B1 & C).
  assert (Ea : h_archfilter hf = h_archfilter hnew) by exact (f_equal h_archfilter (regs_h_static w1 l hnew)).
  (* the caches of the new handler, filled archetype by archetype *)
  assert (F3 : pstate w1 (fun j => False \/ In j l) (fun _ => True) (h_params hnew) (h_params hf)).
  { apply (regs_h_pstate w1 l (slab_iter_nodup _)).
    - intros p q c A B. destruct (Hnewp p q c A B) as [-> _]. split; [constructor|intros j u e _ []].
    - intros p q c A B a Hm. exact (proj2 (Hnewp p q c A B) a Hm).
    - intros j [].
    - intros p' q c' A B. exists p', c'. split; [exact A|]. split; [exact B|]. destruct (Hnewp p' q c' A B) as [-> _]. split; [constructor|]. split; [intros j []|reflexivity]. }
  clearbody hnew hf. match goal with |- XI ?x => set (w3 := x) end.
  assert (Hat : forall j, arch_at w3 j = option_map (reg_arch hnew) (arch_at w1 j)) by (intros j; exact (reg_all_at hnew w1 j)).
  assert (Hcv : forall j, option_map cview (arch_at w3 j) = option_map cview (arch_at w1 j)) by (intros j; rewrite Hat; now destruct (arch_at w1 j)).
  assert (Hl3 : forall x h, hlive w3 x h <-> (x = k /\ h = hf) \/ (x <> k /\ hlive w1 x h)).
  { intros x h. unfold hlive, w3. cbn [w_hs set_hreg]. destruct (key_eq_dec x k) as [->|Hne].
    - rewrite B1. split; [intros X; left; split; [reflexivity|congruence]|intros [[_ ->]|[X _]]; [reflexivity|contradiction]].
    - rewrite (C x Hne). split; [intros X; right; auto|intros [[X _]|[_ X]]; [contradiction|exact X]]. }
  assert (HRN : RfInv w3 /\ RN w3).
  { apply RfRN_lists. intros ai a3 Ha3. rewrite Hat in Ha3. destruct (arch_at w1 ai) as [a|] eqn:Ha; [|discriminate]. injection Ha3 as <-.
    change (arch_has (reg_arch hnew a)) with (arch_has a).
    apply (lholds_entry (w_hs w1) _ k hf hnew (fun h => ca_matches (arch_has a) (h_archfilter h)) (a_refresh a) _ Hfr B1 C);
      [now rewrite Ea|exact (proj1 (RfRN_lists w1) (conj HR HN) ai a Ha)|].
    cbn [a_refresh reg_arch set_tables]. rewrite Fk. destruct (ca_matches _ _); [split; [apply kset_insert_nodup|intros x; apply kset_insert_in]|reflexivity]. }
  split; [|split; [|split]].
  - intros x h p q c X Y Z. apply Hl3 in X as [[-> ->]|[Hne X]].
    + destruct (F3 p q c Y Z) as (p0 & c0 & P1 & P2 & P3 & P4 & P5). split; [exact P3|]. intros j _. apply (good_ext w1); [apply Hcv|].
      destruct (in_dec N.eq_dec j l) as [Hj|Hj]; [apply P4; now right|].
      apply good_none.
      * intros u e X. apply (P5 j u e) in X; [|intros [[]|Y']; contradiction]. destruct (Hnewp p0 q c0 P1 P2) as [-> _]. destruct X.
      * intros a0 A0 _. exfalso. apply Hj. apply slab_iter_idx. unfold arch_at in A0. congruence.
    + destruct (HF x h p q c X Y Z) as [Hnd Hg]. split; [exact Hnd|]. intros j _. apply (good_ext w1); [apply Hcv|]. now apply Hg.
  - exact (proj1 HRN).
  - intros x h p q c X Y Z a Hm. apply Hl3 in X as [[-> ->]|[Hne X]]; [|eapply HP; eauto].
    destruct (F3 p q c Y Z) as (p0 & c0 & P1 & P2 & _). rewrite Ea. exact (proj2 (Hnewp p0 q c0 P1 P2) a Hm).
  - exact (proj2 HRN).
Qed.

(* the parameters collected by init_params carry empty caches, and their access is recorded *)
Definition CfInv (c : hconfig) : Prop :=
  forall p q cache, In p (cf_params c) -> pquery p = Some (q, cache) -> cache = [] /\ In (access_of q) (cf_cas c).

Lemma amatch_access a q : amatch a q = true -> ca_matches (arch_has a) (access_of q) = true.
Proof. unfold amatch. rewrite access_matches_qmatch, <- arch_state_iff_qmatch. destruct (arch_state (arch_has a) q); auto. Qed.

Section Init.
Variable beh : hinfo -> logent -> N -> script.

Lemma init_params_CfInv ps : forall c w, CfInv c -> match init_params beh ps c w with ROk c' _ => CfInv c' | RFail _ _ => True end.
Proof.
  apply (init_params_cfg beh CfInv).
  - intros c k m HC p q cache Hin Hq. cbn [cfg_recv_g cf_params cf_cas] in *.
    apply in_app_or in Hin as [Hin|[<-|[]]]; [exact (HC p q cache Hin Hq)|discriminate].
  - intros c k m q' HC p q0 cache Hin Hq. cbn [cfg_recv_t cf_params cf_cas] in *. apply in_app_or in Hin as [Hin|[<-|[]]].
    + destruct (HC p q0 cache Hin Hq) as [A B]. split; [exact A|apply in_or_app; now left].
    + cbn in Hq. inversion Hq; subst. split; [reflexivity|apply in_or_app; right; now left].
  - intros c kd q' HC p q0 cache Hin Hq. cbn [cfg_fetch cf_params cf_cas] in *. apply in_app_or in Hin as [Hin|[<-|[]]].
    + destruct (HC p q0 cache Hin Hq) as [A B]. split; [exact A|apply in_or_app; now left].
    + cbn in Hq. inversion Hq; subst. split; [reflexivity|apply in_or_app; right; now left].
  - intros c r HC p q cache Hin Hq. cbn [cfg_sender cf_params cf_cas] in *.
    apply in_app_or in Hin as [Hin|[<-|[]]]; [exact (HC p q cache Hin Hq)|discriminate].
Qed.
Lemma init_param_CfInv p c w : CfInv c -> match init_param beh p c w with ROk c' _ => CfInv c' | RFail _ _ => True end.
Proof. intros HC. pose proof (init_params_CfInv [p] c w HC) as H. cbn [init_params] in H. destruct (init_param beh p c w); exact H. Qed.
Lemma CfInv_cfg0 : CfInv cfg0. Proof. intros p q cache []. Qed.
End Init.

Lemma CfInv_pinv c a q p cache : CfInv c -> In p (cf_params c) -> pquery p = Some (q, cache) ->
  cache = [] /\ (amatch a q = true -> ca_matches (arch_has a) (fold_left ca_or (cf_cas c) ca_false) = true).
Proof.
  intros HC Hin Hq. destruct (HC p q cache Hin Hq) as [A B]. split; [exact A|]. intros Hm. rewrite fold_or_matches. apply orb_true_iff. right.
  apply existsb_exists. exists (access_of q). split; [exact B|now apply amatch_access].
Qed.

Lemma handler_entry_XI sh c w1 k w3 : HInv w1 -> XI w1 -> CfInv c -> handler_entry sh c w1 = inr (k, w3) -> XI w3.
Proof.
  intros HH HX HC Eh. destruct (handler_entry_inv sh c w1 k w3 Eh) as (rv & acc & hs & _ & _ & Ei & ->).
  eapply (add_handler_entry_XI w1 _ k hs); [exact HH|exact HX|exact Ei|reflexivity|]. cbn [h_params h_archfilter].
  intros p q cache Hin Hq. split; [exact (proj1 (HC p q cache Hin Hq))|]. intros a Hm. exact (proj2 (CfInv_pinv c a q p cache HC Hin Hq) Hm).
Qed.

Definition DI (w : world) : Prop := BI w /\ XI w.

Lemma DI_parts w : DI w -> FInv w /\ HL w /\ OInv w /\ XI w.
Proof. intros [HB HX]. destruct (BI_parts _ HB) as (A & B & C). auto. Qed.

Lemma DI_world0 fuel p : DI (world0 fuel p).
Proof.
  split; [apply BI_world0|]. unfold XI, FI, FIx, RfInv, PInv, RN, hlive, world0, arch_at. cbn [w_hs w_archs].
  split; [intros hk h p0 q c H; discriminate|]. split; [|split; [intros hk h p0 q c H; discriminate|]].
  - intros ai a Ha hk. unfold slab_get in Ha. cbn [sl_entries nget] in Ha. destruct (ai =? 0); [|discriminate]. inversion Ha; subst. cbn. split; [intros []|intros (h & H & _); discriminate].
  - intros ai a Ha. unfold slab_get in Ha. cbn [sl_entries nget] in Ha. destruct (ai =? 0); [|discriminate]. inversion Ha; subst. constructor.
Qed.

Lemma gev_entry_DI w tag k m : DI w -> insert_with (fun _ => mkE tag (gkind tag)) (w_gev w) = Some (k, m) -> DI (gev_entry_world w tag k m).
Proof.
  intros [[[[[HR HK] HH] HG] HO] HX] Ei. destruct (gev_entry_HL w tag k m Ei (conj HH HG)) as [HH2 HG2].
  split; [split; [split; [split; [split; [exact (gev_entry_RInv w tag k m HR Ei)|exact HK]|exact HH2]|exact HG2]|exact (gev_entry_O w tag k m HO)]|exact HX].
Qed.
Lemma tev_entry_DI w0 tag kind k m : DI w0 -> kind_comp_live w0 kind ->
  insert_with (fun _ => mkE tag kind) (w_tev w0) = Some (k, m) -> DI (tev_entry_world w0 tag kind k m).
Proof.
  intros [[[[HF HH] HG] HO] HX] Hl Ei.
  destruct (HLG_fields w0 (tev_entry_world w0 tag kind k m)) as [HH1 HG1]; try (unfold tev_entry_world; destruct kind; reflexivity); [exact (conj HH HG)|].
  split; [split; [split; [split; [exact (tev_entry_FInv w0 tag kind k m HF Hl Ei)|exact HH1]|exact HG1]|]|].
  - apply (OInv_conv w0); try (unfold tev_entry_world; destruct kind; reflexivity). exact HO.
  - unfold tev_entry_world. destruct kind; exact HX.
Qed.

Lemma comp_exit_XI w k ci m : FInv w -> XI w -> sm_remove k (w_comps w) = Some (ci, m) -> XI (comp_exit_world w k ci m).
Proof.
  intros [[HW _] (_ & _ & K1 & _)] HX Er. pose proof (gbi_of_get _ _ _ (remove_get_self k (w_comps w) ci m Er)) as Hg. destruct (K1 (fst k) k ci Hg) as [Hnd Hm].
  change (XI (archs_remove_component (set_comps w m (aremove (c_tag ci) (w_cby w))) (fst k) (c_tag ci) (c_member_of ci))).
  apply archs_remove_component_XI; [eapply WInv_ext; [| | |exact HW]; reflexivity|exact Hnd| |exact HX].
  intros ai a Ha. rewrite Hm. change (arch_at w ai = Some a) in Ha. split; [intros (b & Hb & Hin); congruence|eauto].
Qed.

Section Steps.
Variable beh : hinfo -> logent -> N -> script.

Lemma DI_kept : kept DI.
Proof. exact (kept_and BI HL XI BI_kept (fun w H => proj1 (proj2 (BI_parts w H))) HL_stable XI_stable). Qed.
Lemma flush_DI q w : DI w -> DI (res_world (flush beh q w)).
Proof. exact (kept_flush beh DI DI_kept q w). Qed.

Definition AO (w : world) : Prop := AInv w /\ OInv w.

Lemma AO_kept : kept AO.
Proof. exact (kept_and AInv HL OInv AInv_kept (fun w => @proj2 _ _) HL_stable O_stable). Qed.

Lemma deliver_one_AO e w : AO w -> AO (snd (fst (deliver_one beh e w))).
Proof. exact (kept_deliver_one beh AO AO_kept e w). Qed.

Lemma unwind_AO q0 (st : wst) : AO (fst st) -> AO (fst (unwind_w q0 st)).
Proof. exact (kept_unwind_w AO AO_kept q0 st). Qed.

Lemma AO_XI_flush n q w tr s' oc :
  Loop.flush wst qitem (run_w beh) unwind_w n q (w, None) [] = Some (tr, s', oc) -> AO w -> XI w -> AO (fst s') /\ XI (fst s').
Proof.
  intros H HA HX. exact (kept_flush_loop beh _ (kept_and AO HL XI AO_kept (fun w H => proj2 (proj1 H)) HL_stable XI_stable) n q w tr s' oc H (conj HA HX)).
Qed.

Definition XI_over : Layer beh BI.
Proof.
  apply (plain beh XI); [|intros q w HB HX _; exact (proj2 (kept_flush beh DI DI_kept q w (conj HB HX)))]. intros b w w' Hp HB HX _.
  destruct Hp as [w w' Hq|w tag k m _ _|w tag k m _ _|w0 tag kind k m _ _ _ _|sh w c w1 k w3 _ Ei Eh|w1 k h w2 Eh|k w w1 w2 info m _ _ _ _ _|k w w1 w2 info m _ _ _ _ _].
  - exact (XI_stable _ _ (st_same (ss_quiet _ _ Hq)) (proj1 (proj2 (BI_parts _ HB))) HX).
  - exact HX.
  - exact HX.
  - destruct kind; exact HX.
  - pose proof (init_params_CfInv beh (sh_params sh) cfg0 w CfInv_cfg0) as HC. rewrite Ei in HC.
    destruct (BI_parts _ HB) as (_ & HH & _). exact (handler_entry_XI sh c w1 k w3 (proj1 HH) HX HC Eh).
  - destruct (BI_parts _ HB) as (_ & HH & _). exact (handler_exit_XI w1 k h w2 (proj1 HH) HX Eh).
  - exact HX.
  - unfold tev_exit_world. cbv zeta. destruct (e_kind info); exact HX.
Defined.

Lemma XI_comp_exit : comp_exit_ok XI_over.
Proof.
  intros k w w1 dk w2 w3 w4 ci w5 ci' m _ _ _ _ _ _ _ _ _ _ _ _ _ _ _ _ HB HX Er _. destruct (BI_parts _ HB) as (HF & _). exact (comp_exit_XI w5 k ci' m HF HX Er).
Qed.

Definition DI_layer : Layer beh (fun _ => True) := stack (BI_layer beh) XI_over (fun w _ H => proj1 (BI_layer_J beh w) H).

Lemma DI_layer_J w : lJ DI_layer w <-> DI w.
Proof. split; intros [A B]; (split; [|exact B]); [exact (proj1 (BI_layer_J beh w) A)|exact (proj2 (BI_layer_J beh w) A)]. Qed.
Lemma tri_DI {A} w (r : res A) Q : tri beh DI_layer w r Q -> DI (res_world r).
Proof. intros H. exact (proj1 (DI_layer_J _) (proj1 (tri_J beh DI_layer r w Q H))). Qed.
Lemma keeps_DI {A} (r : res A) : keeps beh DI_layer r -> DI (res_world r).
Proof. intros H. exact (proj1 (DI_layer_J _) (proj1 H)). Qed.

Lemma DI_comp_exit : comp_exit_ok DI_layer.
Proof. apply stack_comp_exit; [apply BI_comp_exit|exact XI_comp_exit]. Qed.

Lemma rbind_DI {A B} (r : res A) (f : A -> world -> res B) :
  DI (res_world r) -> (forall a w, DI w -> DI (res_world (f a w))) -> DI (res_world (rbind r f)).
Proof. apply rbind_K. Qed.
Lemma gev_DI fuel : forall tag w, DI w ->
  DI (res_world (add_global_event beh fuel tag w)) /\ forall ev, DI (res_world (send_global beh fuel tag ev w)).
Proof.
  intros tag w H. destruct (gev_tri beh DI_layer fuel tag w (proj2 (DI_layer_J w) H)) as [A B].
  split; [exact (tri_DI _ _ _ A)|intros ev; exact (tri_DI _ _ _ (B ev))].
Qed.
Lemma send_global_DI tag ev w : DI w -> DI (res_world (send_global beh RFUEL tag ev w)).
Proof. intros H. exact (tri_DI _ _ _ (send_global_tri beh DI_layer tag ev w (proj2 (DI_layer_J w) H))). Qed.
Lemma add_global_event_DI tag w : DI w -> DI (res_world (add_global_event beh RFUEL tag w)).
Proof. intros H. exact (tri_DI _ _ _ (add_global_event_tri beh DI_layer tag w (proj2 (DI_layer_J w) H))). Qed.
Lemma add_component_DI tag w : DI w -> DI (res_world (add_component beh tag w)).
Proof. intros H. exact (tri_DI _ _ _ (add_component_tri beh DI_layer tag w (proj2 (DI_layer_J w) H))). Qed.
Lemma tev_stage1_DI tag w : DI w -> DI (res_world (tev_stage1 beh tag w)).
Proof. intros H. exact (tri_DI _ _ _ (tev_stage1_tri beh DI_layer tag w (proj2 (DI_layer_J w) H))). Qed.
Lemma add_targeted_event_DI tag w : DI w -> DI (res_world (add_targeted_event beh tag w)).
Proof. intros H. exact (tri_DI _ _ _ (add_targeted_event_tri beh DI_layer tag w (proj2 (DI_layer_J w) H))). Qed.
Lemma send_to_DI tag target ev w : DI w -> DI (res_world (send_to beh tag target ev w)).
Proof. intros H. exact (tri_DI _ _ _ (send_to_tri beh DI_layer tag target ev w (proj2 (DI_layer_J w) H))). Qed.
Theorem op_spawn_DI w : DI w -> DI (res_world (op_spawn beh w)).
Proof. intros H. exact (tri_DI _ _ _ (op_spawn_tri beh DI_layer w (proj2 (DI_layer_J w) H))). Qed.
Theorem op_insert_DI e ktag w : DI w -> DI (res_world (op_insert beh e ktag w)).
Proof. intros H. exact (tri_DI _ _ _ (op_insert_tri beh DI_layer e ktag w (proj2 (DI_layer_J w) H))). Qed.
Theorem op_remove_DI e ktag w : DI w -> DI (res_world (op_remove beh e ktag w)).
Proof. intros H. exact (tri_DI _ _ _ (send_to_tri beh DI_layer _ _ _ w (proj2 (DI_layer_J w) H))). Qed.
Theorem op_despawn_DI e w : DI w -> DI (res_world (op_despawn beh e w)).
Proof. intros H. exact (tri_DI _ _ _ (send_to_tri beh DI_layer _ _ _ w (proj2 (DI_layer_J w) H))). Qed.
Theorem op_send_DI gtag w : DI w -> DI (res_world (op_send beh gtag w)).
Proof. intros H. exact (tri_DI _ _ _ (op_send_tri beh DI_layer gtag w (proj2 (DI_layer_J w) H))). Qed.
Theorem op_send_to_DI e ttag w : DI w -> DI (res_world (op_send_to beh e ttag w)).
Proof. intros H. exact (tri_DI _ _ _ (op_send_to_tri beh DI_layer e ttag w (proj2 (DI_layer_J w) H))). Qed.
Lemma resolve_query_DI q : forall w, DI w -> DI (res_world (resolve_query beh q w)).
Proof. intros w H. exact (tri_DI _ _ _ (resolve_query_tri beh DI_layer q w (proj2 (DI_layer_J w) H))). Qed.
Lemma register_set_DI evs : forall w, DI w -> DI (res_world (register_set beh evs w)).
Proof. intros w H. exact (tri_DI _ _ _ (register_set_tri beh DI_layer evs w (proj2 (DI_layer_J w) H))). Qed.
Lemma init_param_DI p c w : DI w -> DI (res_world (init_param beh p c w)).
Proof. intros H. exact (tri_DI _ _ _ (init_param_tri beh DI_layer p c w (proj2 (DI_layer_J w) H))). Qed.
Lemma init_params_DI ps : forall c w, DI w -> DI (res_world (init_params beh ps c w)).
Proof. intros c w H. exact (tri_DI _ _ _ (init_params_tri beh DI_layer ps c w (proj2 (DI_layer_J w) H))). Qed.
Theorem add_handler_DI sh w : DI w -> DI (res_world (add_handler beh sh w)).
Proof. intros H. exact (tri_DI _ _ _ (add_handler_tri beh DI_layer sh w (proj2 (DI_layer_J w) H))). Qed.
Theorem remove_handler_DI k w : DI w -> DI (res_world (remove_handler beh k w)).
Proof. intros H. exact (keeps_DI _ (remove_handler_keeps beh DI_layer k w (proj2 (DI_layer_J w) H))). Qed.
Lemma remove_handlers_DI ks : forall w, DI w -> DI (res_world (remove_handlers beh ks w)).
Proof. intros w H. exact (keeps_DI _ (remove_handlers_keeps beh DI_layer ks w (proj2 (DI_layer_J w) H))). Qed.
Theorem remove_global_event_DI k w : DI w -> DI (res_world (remove_global_event beh k w)).
Proof. intros H. exact (keeps_DI _ (remove_global_event_keeps beh DI_layer k w (proj2 (DI_layer_J w) H))). Qed.
Theorem remove_targeted_event_DI k w : DI w -> DI (res_world (remove_targeted_event beh k w)).
Proof. intros H. exact (keeps_DI _ (remove_targeted_event_keeps beh DI_layer k w (proj2 (DI_layer_J w) H))). Qed.
Lemma remove_tevents_DI ks : forall w, DI w -> DI (res_world (remove_tevents beh ks w)).
Proof. intros w H. exact (keeps_DI _ (remove_tevents_keeps beh DI_layer ks w (proj2 (DI_layer_J w) H))). Qed.
Theorem remove_component_DI k w : DI w -> DI (res_world (remove_component beh k w)).
Proof. intros H. exact (keeps_DI _ (remove_component_keeps beh DI_layer k w DI_comp_exit (proj2 (DI_layer_J w) H))). Qed.

End Steps.

Lemma DI_ev_drop w t tag ev : DI w -> DI (ev_drop w t tag ev).
Proof. intros H. exact (proj1 (DI_layer_J script_beh _) (place_J script_beh (DI_layer script_beh) _ _ _ (p_quiet _ _ (quiet_ev_drop w t tag ev)) (proj2 (DI_layer_J script_beh w) H))). Qed.
Lemma run_top_all_DI beh w o : DI w -> DI (run_top_all beh w o).
Proof. intros H. exact (proj1 (DI_layer_J beh _) (run_top_all_keeps beh (DI_layer beh) (DI_comp_exit beh) w o (proj2 (DI_layer_J beh w) H))). Qed.

Theorem reachable_DI beh fuel p ops : DI (fold_left (run_top_all beh) ops (world0 fuel p)).
Proof.
  exact (proj1 (DI_layer_J beh _) (history_keeps beh (DI_layer beh) ops _ (DI_comp_exit beh) (proj2 (DI_layer_J beh _) (DI_world0 fuel p)))).
Qed.

(* C10 / C06 at world level: what a cache-backed view yields *)
Lemma cache_entry_ok w q first ai u e a : arch_at w ai = Some a -> u = a_uid a -> e = a_epoch a -> 0 < nlen (a_rows a) -> amatch a q = true ->
  exists st, arch_state (arch_has a) q = Some st /\ cache_entry_items w q first (ai, u, e) = inr (map (fun '(k, vals) => (k, aitem (row_col a vals) k st)) (a_rows a)).
Proof.
  intros Ha -> -> Hn Hm. unfold cache_entry_items. unfold arch_at in Ha. rewrite Ha, !N.eqb_refl. cbn [negb].
  replace (nlen (a_rows a) =? 0) with false by (symmetry; apply N.eqb_neq; lia). cbn [andb].
  unfold amatch in Hm. unfold has_of. destruct (arch_state (arch_has a) q) as [st|]; [|discriminate]. eauto.
Qed.

Theorem cache_items_ok w q c : CI w q c ->
  exists its, cache_items w q true c = inr its /\
    forall k, In k (map fst its) <-> exists ai a row vals, arch_at w ai = Some a /\ amatch a q = true /\ nget (a_rows a) row = Some (k, vals).
Proof.
  intros [Hnd Hg].
  assert (Hent : forall x, In x c -> exists a, arch_at w (ce_idx x) = Some a /\ snd (fst x) = a_uid a /\ snd x = a_epoch a /\ 0 < nlen (a_rows a) /\ amatch a q = true).
  { intros [[ai u] e] Hin. apply (Hg ai) in Hin as (a & A & B & C & D & E). exists a. cbn. auto. }
  assert (G : forall first l, (forall x, In x l -> In x c) -> exists its, cache_items w q first l = inr its /\
             forall k, In k (map fst its) <-> exists x a row vals, In x l /\ arch_at w (ce_idx x) = Some a /\ nget (a_rows a) row = Some (k, vals)).
  { intros first l. revert first. induction l as [|[[ai u] e] l IH]; intros first Hsub; cbn [cache_items].
    - exists []. split; [reflexivity|]. intros k. cbn. split; [intros []|intros (x & _ & _ & _ & [] & _)].
    - destruct (Hent (ai, u, e) (Hsub _ (or_introl eq_refl))) as (a & A & B & C & D & E). cbn [ce_idx fst snd] in *.
      destruct (cache_entry_ok w q first ai u e a A B C D E) as (st & Hst & ->). destruct (IH false (fun x Hx => Hsub x (or_intror Hx))) as (r & -> & Hr).
      eexists. split; [reflexivity|]. intros k. rewrite map_app, in_app_iff, Hr. rewrite map_map. split.
      + intros [X|(x & a0 & row & vals & X1 & X2 & X3)].
        * apply in_map_iff in X as ([k0 vals] & Ek & Hin). cbn in Ek. subst k0. destruct (in_nget _ _ Hin) as (row & Hrow). exists (ai, u, e), a, row, vals. split; [now left|auto].
        * exists x, a0, row, vals. split; [now right|auto].
      + intros (x & a0 & row & vals & [<-|X1] & X2 & X3).
        * left. cbn [ce_idx fst] in X2. rewrite A in X2. inversion X2; subst a0. apply in_map_iff. exists (k, vals). split; [reflexivity|eapply nget_in; eauto].
        * right. exists x, a0, row, vals. auto. }
  destruct (G true c (fun x H => H)) as (its & Hits & Hk). exists its. split; [exact Hits|]. intros k. rewrite Hk. split.
  - intros (x & a & row & vals & X1 & X2 & X3). destruct (Hent x X1) as (a0 & A & _ & _ & _ & E). rewrite X2 in A. inversion A; subst a0. exists (ce_idx x), a, row, vals. auto.
  - intros (ai & a & row & vals & X1 & X2 & X3). assert (Hpos : 0 < nlen (a_rows a)) by (eapply nlen_pos_get; eauto).
    assert (Hin : In (ai, a_uid a, a_epoch a) c) by (apply (Hg ai); exists a; auto). exists (ai, a_uid a, a_epoch a), a, row, vals. auto.
Qed.

Theorem recv_item_ok w q c loc a k vals : CI w q c -> arch_at w (fst loc) = Some a -> amatch a q = true -> nget (a_rows a) (snd loc) = Some (k, vals) ->
  exists st, arch_state (arch_has a) q = Some st /\ recv_item w q c loc = inr (aitem (row_col a vals) k st).
Proof.
  intros [Hnd Hg] Ha Hm Hrow. assert (Hpos : 0 < nlen (a_rows a)) by (eapply nlen_pos_get; eauto).
  assert (Hin : In (fst loc, a_uid a, a_epoch a) c) by (apply (Hg (fst loc)); exists a; auto).
  unfold recv_item. destruct (find (fun ce => ce_idx ce =? fst loc) c) as [[[ai u] e]|] eqn:Ef.
  - apply find_some in Ef as [Hx Ei]. cbn [ce_idx fst] in Ei. apply N.eqb_eq in Ei. subst ai.
    assert (E : (fst loc, u, e) = (fst loc, a_uid a, a_epoch a)) by (apply (idx_nodup_in c _ _ Hnd Hx Hin); reflexivity). inversion E; subst u e.
    unfold arch_at in Ha. rewrite Ha, !N.eqb_refl. cbn [negb]. unfold amatch in Hm. unfold has_of. destruct (arch_state (arch_has a) q) as [st|]; [|discriminate].
    rewrite Hrow. eauto.
  - exfalso. pose proof (find_none _ _ Ef _ Hin) as X. cbn [ce_idx fst] in X. rewrite N.eqb_refl in X. discriminate.
Qed.

(* for every live handler of a world satisfying the invariants, every Fetcher / Single parameter sees exactly the
   entities stored in archetypes its query matches (the targeted receiver's item is recv_item_ok) *)
Corollary handler_view_exact w hk h p q c : XI w -> hlive w hk h -> In p (h_params h) -> pquery p = Some (q, c) ->
  exists its, cache_items w q true c = inr its /\
    forall k, In k (map fst its) <-> exists ai a row vals, arch_at w ai = Some a /\ amatch a q = true /\ nget (a_rows a) row = Some (k, vals).
Proof.
  intros (HF & _) Hl Hp Hq. apply cache_items_ok. exact (FI_CI w hk h p q c HF Hl Hp Hq).
Qed.

Global Opaque DI_layer.
