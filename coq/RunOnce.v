(* RunOnce.v : within one delivery every eligible handler is invoked at most once, in list order, and the
   invocations stop at the first handler that takes the event (or panics): the handlers invoked are a PREFIX of
   the listener list, the whole list when nobody took the event and nobody panicked (C07).
   The invocation log of the model (k_log: one entry per handler body entered, the same log the correspondence
   compares with the implementation) is the witness. *)
From Coq Require Import List NArith Bool Lia.
Import ListNotations.
Require Import EV.Base EV.ListN EV.Access EV.Query EV.SlotMap EV.Reserve EV.HList EV.Loop EV.World EV.WorldFrame.
Open Scope N_scope.

Definition klog (w : world) : list logent := k_log (w_h w).

Section RunOnce.
Variable beh : hinfo -> logent -> N -> script.

Lemma klog_use_fuel w : klog (snd (use_fuel w)) = klog w. Proof. unfold use_fuel. destruct (k_fuel (w_h w) =? 0); reflexivity. Qed.
Lemma klog_fresh_serial w : klog (snd (fresh_serial w)) = klog w. Proof. reflexivity. Qed.
Lemma klog_new_cval w k : klog (snd (new_cval w k)) = klog w. Proof. unfold new_cval. destruct (ctag_zst k); reflexivity. Qed.
Lemma klog_push_known w k : klog (push_known w k) = klog w. Proof. reflexivity. Qed.
Lemma klog_reserve w : klog (res_world (reserve w)) = klog w. Proof. apply (r_reserve klog). reflexivity. Qed.
Lemma klog_ev_drop w t tag ev : klog (ev_drop w t tag ev) = klog w. Proof. apply (r_ev_drop klog). reflexivity. Qed.

(* the body of a handler logs nothing *)
Lemma klog_bwalks w0 : bwalks (fun w _ _ => klog w = klog w0) (fun _ _ _ => True) (fun _ => True).
Proof.
  split; auto.
  - intros w s id w1 idx _ Er H. rewrite <- H. unfold reserve in Er. destruct (nki_next _ _) as [[[]]|]; inversion Er; reflexivity.
  - intros w s f H. split; [intros; now rewrite klog_ev_drop|]. now rewrite (r_reserve klog).
Qed.
Lemma klog_run_actions acts : forall ps t fresh sent w, klog (snd (fst (run_actions acts ps t fresh sent w))) = klog w.
Proof. intros ps t fresh sent w. exact (body_rule _ _ _ (klog_bwalks w) ps (fun _ _ _ _ => I) acts t fresh [] sent w eq_refl). Qed.
Lemma klog_apply_writes w ps loc d : klog (apply_writes w ps loc d) = klog w.
Proof. apply (r_apply_writes klog). reflexivity. Qed.

(* one handler: either its parameters could not be evaluated (documented Single panic: the body is not entered,
   nothing is logged, the delivery stops) or exactly one entry with its key is appended *)
Lemma run_handler_log w h it tag loc :
  let r := run_handler beh w h it tag loc in
  (klog (snd r) = klog w /\ hr_fail (fst r) <> None /\ hr_taken (fst r) = false) \/
  (exists le, klog (snd r) = klog w ++ [le] /\ lg_handler le = h_key h).
Proof.
  cbn zeta. unfold run_handler. destruct (param_views w (h_params h) loc) as [f|[ritems views]].
  - left. cbn [fst snd hr_fail hr_taken]. split; [reflexivity|split; [discriminate|reflexivity]].
  - right. match goal with |- context [run_actions ?a ?b ?c ?d ?e ?x0] =>
      pose proof (klog_run_actions a b c d e x0) as Hra; destruct (run_actions a b c d e x0) as [[sent w3] fl] end.
    cbn [fst snd] in Hra. rewrite klog_apply_writes in Hra. unfold klog in Hra at 2. cbn [w_h set_h k_log set_hst_fields] in Hra.
    eexists. split; [destruct fl; [|destruct (_ =? _)]; cbn [snd]; exact Hra|reflexivity].
Qed.

Theorem run_handlers_prefix hl : forall w it tag loc sent,
  (forall hk, In hk hl -> exists h, sm_get hk (w_hs w) = Some h /\ h_key h = hk) ->
  let r := run_handlers beh hl w it tag loc sent in
  let w' := fst (fst (fst (fst r))) in
  exists n new, klog w' = klog w ++ new /\ map lg_handler new = firstn n hl /\ (n <= length hl)%nat /\
                (snd r = None -> snd (fst r) = false -> n = length hl).
Proof.
  induction hl as [|hk rest IH]; intros w it tag loc sent Hlive; cbn zeta; cbn [run_handlers].
  - exists O, []. cbn [fst snd]. rewrite app_nil_r. auto.
  - destruct (Hlive hk (or_introl eq_refl)) as (h & Eh & Hk). rewrite Eh.
    pose proof (run_handler_log w h it tag loc) as Hlog. cbn zeta in Hlog.
    pose proof (r_run_handler w_hs ltac:(fr) ltac:(fr) ltac:(fr) ltac:(fr) beh w h it tag loc) as Hhs.
    destruct (run_handler beh w h it tag loc) as [r w1]. cbn [fst snd] in Hlog, Hhs.
    destruct Hlog as [(El & Hf & Ht)|(le & El & Hle)].
    + (* parameters could not be evaluated: stop, nothing logged *)
      destruct (hr_fail r) as [f|]; [|congruence]. rewrite Ht. cbn [fst snd]. exists O, []. rewrite app_nil_r. split; [exact El|]. split; [reflexivity|]. split; [lia|discriminate].
    + destruct (hr_fail r) as [f|] eqn:Ef.
      * cbn [fst snd]. exists 1%nat, [le]. split; [destruct (hr_taken r); [rewrite klog_ev_drop|]; exact El|]. split; [cbn; now rewrite Hle, Hk|]. split; [cbn; lia|discriminate].
      * destruct (hr_taken r) eqn:Et.
        -- cbn [fst snd]. exists 1%nat, [le]. split; [rewrite klog_ev_drop; exact El|]. split; [cbn; now rewrite Hle, Hk|]. split; [cbn; lia|discriminate].
        -- assert (Hlive1 : forall hk0, In hk0 rest -> exists h0, sm_get hk0 (w_hs w1) = Some h0 /\ h_key h0 = hk0) by (intros hk0 Hin; rewrite Hhs; apply Hlive; now right).
           destruct (IH w1 (mkQ (qi_targeted it) (qi_idx it) (qi_target it) (hr_ev r)) tag loc (sent ++ hr_sent r) Hlive1) as (n & new & A & B & C & D).
           cbn zeta in A, D. exists (S n), (le :: new). split; [rewrite A, El, <- app_assoc; reflexivity|]. split; [cbn [map firstn]; now rewrite Hle, Hk, B|].
           split; [cbn [length]; lia|]. intros H1 H2. cbn [length]. f_equal. now apply D.
Qed.
End RunOnce.
