(* Sender.v : no call on a reachable world reaches an unchecked failure (C01).
   NoUB.v shows that one delivery is free of unchecked failures once the queued item's event is
   found in the registry.  This file closes that gap: every item that is ever queued - by a
   top-level send, by a registration notification, or by a handler through its Sender - names a
   registered event (with a listener list), because
     ByInv  the by-type maps point at live events carrying that type,
     GlInv  every live global event has a listener list,
     NInv   every event index a live handler's Sender can produce is registered (and recorded in
            the handler's sent-sets, which is what remove_*_event uses to remove such handlers first).
   These hold in every reachable world; with the invariants of Fetch.v / NoUB.v they give: no
   call, with any handler behaviour, returns an unchecked failure.
   YI = ByInv /\ GlInv /\ NInv /\ RcvI is carried through the calls as a layer over EI (Layer.v). *)
From Coq Require Import List NArith Bool Lia Sorted Permutation.
Import ListNotations.
Require Import EV.Base EV.ListN EV.Access EV.Query EV.SlotMap EV.Reserve EV.HList EV.Loop EV.World EV.SlotMapGet
  EV.AccessProofs EV.ArchProofs EV.QueryProofs EV.WorldFrame EV.Layer EV.Store EV.Register EV.Graph EV.Effects EV.Reach EV.Steps EV.RemoveComp EV.Member EV.Listen EV.Order EV.Fetch EV.NoUB.
Open Scope N_scope.

Section LoopQ.
Variables (St Ev : Type).
Variable run : Ev -> St -> list Ev * St * bool.
Variable unwind : list Ev -> St -> St.
Variable P : St -> Prop.
Variable Q : St -> Ev -> Prop.
Hypothesis Hrun : forall e st, P st -> Q st e ->
  P (snd (fst (run e st))) /\ (forall x, In x (fst (fst (run e st))) -> Q (snd (fst (run e st))) x) /\ (forall x, Q st x -> Q (snd (fst (run e st))) x).
Hypothesis Hunw : forall q st, P st -> P (unwind q st).

Theorem flush_invariant_q : forall n q st acc tr st' oc,
  Loop.flush St Ev run unwind n q st acc = Some (tr, st', oc) -> P st -> (forall x, In x q -> Q st x) -> P st'.
Proof. exact (flush_invariant_queue St Ev run unwind P Q Hrun Hunw). Qed.
End LoopQ.

Definition greg (w : world) (i : N) : Prop := get_by_index (w_gev w) i <> None /\ nget (w_glists w) i <> None.
Definition treg (w : world) (i : N) : Prop := get_by_index (w_tev w) i <> None.
(* the event registered at global index [i], if any, carries type tag [tag] *)
Definition gtagged (w : world) (i tag : N) : Prop := forall k info, get_by_index (w_gev w) i = Some (k, info) -> e_tag info = tag.
Definition item_ok (w : world) (it : qitem) : Prop := if qi_targeted it then treg w (qi_idx it) else greg w (qi_idx it).

Definition sender_ok (w : world) (h : hinfo) : Prop :=
  forall g t, In (Some (g, t)) (pss h) ->
    (forall tag i, In (tag, i) g -> smem i (h_sent_g h) = true /\ greg w i /\ gtagged w i tag) /\
    (forall tag i, In (tag, i) t -> smem i (h_sent_t h) = true /\ treg w i).
Definition NInv (w : world) : Prop := forall hk h, hlive w hk h -> sender_ok w h.
Definition ByInv (w : world) : Prop :=
  (forall tag k, alookup tag (w_gby w) = Some k -> exists info, sm_get k (w_gev w) = Some info /\ e_tag info = tag) /\
  (forall tag k, alookup tag (w_tby w) = Some k -> exists info, sm_get k (w_tev w) = Some info /\ e_tag info = tag).
Definition GlInv (w : world) : Prop := forall i, get_by_index (w_gev w) i <> None -> nget (w_glists w) i <> None.
(* the receiver of a live handler is a live event *)
Definition recv_ok (w : world) (h : hinfo) : Prop :=
  match h_recv h with RvGlobal ek => sm_get ek (w_gev w) <> None | RvTargeted ek => sm_get ek (w_tev w) <> None end.
Definition RcvI (w : world) : Prop := forall hk h, hlive w hk h -> recv_ok w h.
Definition YI (w : world) : Prop := ByInv w /\ GlInv w /\ NInv w /\ RcvI w.

(* registries only grow *)
Definition ev_le0 (w' w : world) : Prop := (forall i, greg w i -> greg w' i) /\ (forall i, treg w i -> treg w' i).
Definition kl_le (w' w : world) : Prop :=
  (forall k, sm_get k (w_gev w) <> None -> sm_get k (w_gev w') <> None) /\ (forall k, sm_get k (w_tev w) <> None -> sm_get k (w_tev w') <> None).
Definition tg_le (w' w : world) : Prop := forall i x, get_by_index (w_gev w) i = Some x -> get_by_index (w_gev w') i = Some x.
Definition ev_le1 (w' w : world) : Prop := ev_le0 w' w /\ kl_le w' w.
Definition ev_le (w' w : world) : Prop := ev_le1 w' w /\ tg_le w' w.
Lemma ev_le_intro w' w : (forall i, greg w i -> greg w' i) -> (forall i, treg w i -> treg w' i) ->
  (forall k, sm_get k (w_gev w) <> None -> sm_get k (w_gev w') <> None) -> (forall k, sm_get k (w_tev w) <> None -> sm_get k (w_tev w') <> None) ->
  tg_le w' w -> ev_le w' w.
Proof. intros. split; [split; split|]; assumption. Qed.
Lemma ev_le_g w' w : ev_le w' w -> forall i, greg w i -> greg w' i. Proof. intros [[[A _] _] _]. exact A. Qed.
Lemma ev_le_t w' w : ev_le w' w -> forall i, treg w i -> treg w' i. Proof. intros [[[_ A] _] _]. exact A. Qed.
Lemma ev_le_tg w' w : ev_le w' w -> forall i tag, greg w i -> gtagged w i tag -> gtagged w' i tag.
Proof.
  intros [_ T] i tag [Hg _] Ht k info Hi. destruct (get_by_index (w_gev w) i) as [[k0 i0]|] eqn:E; [|congruence].
  rewrite (T i _ E) in Hi. inversion Hi; subst. exact (Ht _ _ E).
Qed.
Lemma ev_le_refl w : ev_le w w. Proof. apply ev_le_intro; auto. intros i x H; exact H. Qed.
Lemma ev_le_trans a b c : ev_le a b -> ev_le b c -> ev_le a c.
Proof. intros [[[A1 A2] [A3 A4]] A5] [[[B1 B2] [B3 B4]] B5]. apply ev_le_intro; auto. intros i x H; auto. Qed.
Lemma ev_le_reg w' w : registries w' = registries w -> ev_le w' w.
Proof. unfold registries. intros H. injection H as E1 _ E2 _ E3. unfold ev_le, ev_le1, tg_le, ev_le0, kl_le, greg, treg. rewrite E1, E2, E3. split; [split; split; auto|auto]. Qed.
Lemma ev_le_kg w' w : ev_le w' w -> forall k, sm_get k (w_gev w) <> None -> sm_get k (w_gev w') <> None. Proof. intros [[_ [A _]] _]. exact A. Qed.
Lemma ev_le_kt w' w : ev_le w' w -> forall k, sm_get k (w_tev w) <> None -> sm_get k (w_tev w') <> None. Proof. intros [[_ [_ A]] _]. exact A. Qed.

(* what is known of the key [k] a registration returns for the type tag [tag] *)
Definition gknown (w : world) (tag : N) (k : key) : Prop := greg w (fst k) /\ sm_get k (w_gev w) <> None /\ gtagged w (fst k) tag.
Definition tknown (w : world) (tag : N) (k : key) : Prop := treg w (fst k) /\ sm_get k (w_tev w) <> None.
Lemma recv_ok_view w w' h h' : hview3 h' = hview3 h -> ev_le w' w -> recv_ok w h -> recv_ok w' h'.
Proof.
  unfold hview3. intros E [[_ [K1 K2]] _] Hr. assert (Es : hstat h' = hstat h) by congruence. unfold recv_ok in *.
  rewrite (f_equal h_recv Es : h_recv h' = h_recv h). destruct (h_recv h); auto.
Qed.

(* what [sender_ok] and [CfInv3] say of one Sender parameter [g], [t] and the two sets of sent event indices *)
Definition sent_ok (w : world) (sg st : list N) (g t : list (N * N)) : Prop :=
  (forall tag i, In (tag, i) g -> smem i sg = true /\ greg w i /\ gtagged w i tag) /\
  (forall tag i, In (tag, i) t -> smem i st = true /\ treg w i).
Lemma sent_ok_le w' w sg st g t : ev_le w' w -> sent_ok w sg st g t -> sent_ok w' sg st g t.
Proof.
  intros Hle [A B]. split; intros tag i X; [destruct (A tag i X) as (A1 & A2 & A3)|destruct (B tag i X) as [B1 B2]].
  - split; [exact A1|split; [exact (ev_le_g _ _ Hle _ A2)|exact (ev_le_tg _ _ Hle _ _ A2 A3)]].
  - split; [exact B1|exact (ev_le_t _ _ Hle _ B2)].
Qed.

Lemma sender_ok_view w w' h h' : hview3 h' = hview3 h -> ev_le w' w -> sender_ok w h -> sender_ok w' h'.
Proof.
  unfold hview3. intros E Hle Hs g t Hin. assert (Es : hstat h' = hstat h) by congruence. assert (Ep : pss h' = pss h) by congruence.
  rewrite Ep in Hin. rewrite (f_equal h_sent_g Es : h_sent_g h' = h_sent_g h), (f_equal h_sent_t Es : h_sent_t h' = h_sent_t h).
  exact (sent_ok_le _ _ _ _ _ _ Hle (Hs g t Hin)).
Qed.
Lemma NInv_le w' w : hs_le w' w -> ev_le w' w -> NInv w -> NInv w'.
Proof. intros Hh He HN hk h' Hl. destruct (Hh hk h' Hl) as (h & A & B). eapply sender_ok_view; eauto. Qed.
Lemma RcvI_le w' w : hs_le w' w -> ev_le w' w -> RcvI w -> RcvI w'.
Proof. intros Hh He HN hk h' Hl. destruct (Hh hk h' Hl) as (h & A & B). eapply recv_ok_view; eauto. Qed.

Lemma YI_frame w' w : registries w' = registries w -> hs_le w' w -> YI w -> YI w'.
Proof.
  intros Hr Hh (HB & HG & HN & HR). pose proof (ev_le_reg _ _ Hr) as He. unfold registries in Hr. injection Hr as E1 E2 E3 E4 E5.
  split; [|split; [|split]].
  - unfold ByInv. rewrite E1, E2, E3, E4. exact HB.
  - unfold GlInv. rewrite E1, E5. exact HG.
  - eapply NInv_le; eauto.
  - eapply RcvI_le; eauto.
Qed.
Lemma YI_step w' w : registries w' = registries w -> hs_le w' w -> YI w -> YI w' /\ ev_le w' w.
Proof. intros Hr Hh HY. split; [exact (YI_frame _ _ Hr Hh HY)|exact (ev_le_reg _ _ Hr)]. Qed.

Lemma sender_lookup_some ps targeted tag i : sender_lookup ps targeted tag = Some (Some i) ->
  exists g t, In (RSender g t) ps /\ alookup tag (if targeted then t else g) = Some i.
Proof.
  unfold sender_lookup. set (senders := filter _ ps).
  assert (Hs : forall p, In p senders -> In p ps) by (intros p H; unfold senders in H; apply filter_In in H; tauto).
  destruct senders as [|s0 rest] eqn:Es; [discriminate|]. rewrite <- Es in *. intros H. injection H as H1. clear Es.
  assert (G : forall l acc, (forall p, In p l -> In p ps) ->
     fold_left (fun acc p => match acc, p with Some i, _ => Some i | None, RSender g t => alookup tag (if targeted then t else g) | None, _ => None end) l acc = Some i ->
     acc = Some i \/ exists g t, In (RSender g t) ps /\ alookup tag (if targeted then t else g) = Some i).
  { induction l as [|p l IH]; intros acc Hl Hf; cbn [fold_left] in Hf; [now left|].
    apply IH in Hf; [|intros; apply Hl; now right]. destruct Hf as [Hf|Hf]; [|now right].
    destruct acc as [j|]; [now left|]. destruct p; try discriminate. right. exists g, t. split; [apply Hl; now left|exact Hf]. }
  destruct (G senders None Hs H1) as [X|X]; [discriminate|exact X].
Qed.

Definition pushed (ps : list rparam) (x : qitem) : Prop := exists tag, sender_lookup ps (qi_targeted x) tag = Some (Some (qi_idx x)).

(* what the Sender of a live handler may push: the index of a registered event, which for a global event carries that tag *)
Definition sendable (w : world) (tg : bool) (tag idx : N) : Prop := if tg then treg w idx else greg w idx /\ gtagged w idx tag.
Lemma sender_ok_sends w h : sender_ok w h -> sends (h_params h) (sendable w).
Proof.
  intros Hs tg tag idx Hl. apply sender_lookup_some in Hl as (g & t & Hin & Hal). apply alookup_in in Hal.
  assert (Hp : In (Some (g, t)) (pss h)) by (unfold pss; apply in_map_iff; exists (RSender g t); split; [reflexivity|exact Hin]).
  destruct (Hs g t Hp) as [A B]. unfold sendable. destruct tg; [exact (proj2 (B _ _ Hal))|exact (proj2 (A _ _ Hal))].
Qed.
Lemma pushed_ok w h x : sender_ok w h -> pushed (h_params h) x -> item_ok w x.
Proof. intros Hs (tag & Hl). pose proof (sender_ok_sends w h Hs _ _ _ Hl) as H. unfold sendable, item_ok in *. destruct (qi_targeted x); [exact H|exact (proj1 H)]. Qed.

(* the events pushed beyond [sent0] are of types [S] allows *)
Section Sent.
Variables (S : bool -> N -> N -> Prop) (sent0 : list qitem).
Definition sent_in (_ : world) (s : list qitem) (_ : option fail) : Prop :=
  forall x, In x s -> In x sent0 \/ exists tag, S (qi_targeted x) tag (qi_idx x).
Lemma sent_in_snoc w w' s fl fl' tg tag idx target ev : S tg tag idx -> sent_in w s fl -> sent_in w' (s ++ [mkQ tg idx target ev]) fl'.
Proof. intros HS H x Hx. apply in_app_or in Hx as [Hx|[<-|[]]]; [auto|right; now exists tag]. Qed.

Lemma sent_in_walks : walks sent_in S (fun _ => True).
Proof. split; [split|..]; auto; intros; eapply sent_in_snoc; eauto. Qed.
End Sent.

Lemma run_actions_sent acts : forall ps t fresh sent w x,
  In x (fst (fst (run_actions acts ps t fresh sent w))) -> In x sent \/ pushed ps x.
Proof.
  intros ps t fresh sent w. apply (body_rule _ _ _ (sent_in_walks (fun tg tag idx => sender_lookup ps tg tag = Some (Some idx)) sent) ps (fun _ _ _ H => H) acts t fresh []).
  intros x Hx. now left.
Qed.

Lemma item_ok_reg w w' x : registries w' = registries w -> item_ok w x -> item_ok w' x.
Proof. intros H. destruct (ev_le_reg _ _ H) as [[[A B] _] _]. unfold item_ok. destruct (qi_targeted x); auto. Qed.

Definition ZI (w : world) : Prop := EI w /\ YI w.

Lemma DI_regs w : DI w -> SmInv (w_gev w) /\ SmInv (w_tev w) /\ HInv w.
Proof. intros HD. destruct (DI_parts _ HD) as ([_ (_ & T & _)] & (H & _) & _). destruct HD as [[[_ G] _] _]. auto. Qed.

Lemma ZI_store w : ZI w -> StoreInv w.
Proof. intros [[HD _] _]. destruct (DI_parts _ HD) as ([[[X _] _] _] & _). exact X. Qed.
Lemma ZI_intro w' w : DI w' -> w_hs w' = w_hs w -> registries w' = registries w -> ZI w -> ZI w'.
Proof.
  intros HD Hh Hr [[_ HS] HY]. pose proof (hs_le_hs _ _ Hh) as Hle.
  split; [split; [exact HD|eapply SInv_le; eauto]|eapply YI_frame; eauto].
Qed.

Definition nub {A} (r : res A) : Prop := match r with RFail (FUB _) _ => False | _ => True end.
Definition ZOK {A} (r : res A) (post : A -> world -> Prop) : Prop :=
  ZI (res_world r) /\ nub r /\ match r with ROk a w' => post a w' | RFail _ _ => True end.
Lemma nub_fail {A} f w : nub (@RFail A f w) <-> ~ ubf (Some f).
Proof. destruct f; cbn; tauto. Qed.
Lemma ZOK_weaken {A} (r : res A) (p1 p2 : A -> world -> Prop) : (forall a w, ZI w -> p1 a w -> p2 a w) -> ZOK r p1 -> ZOK r p2.
Proof. intros H (A1 & A2 & A3). split; [exact A1|split; [exact A2|]]. destruct r; [apply H; assumption|exact I]. Qed.
Lemma rbind_ZOK {A B} (r : res A) (f : A -> world -> res B) post1 post2 :
  ZOK r post1 -> (forall a w1, ZI w1 -> post1 a w1 -> ZOK (f a w1) post2) -> ZOK (rbind r f) post2.
Proof.
  intros (HZ & Hn & Hp) Hf. destruct r as [a w1|e w1]; cbn [rbind res_world] in *; [now apply Hf|].
  split; [exact HZ|split; [exact Hn|exact I]].
Qed.
Lemma ZOK_fail {A} f w : ZI w -> ~ ubf (Some f) -> forall post, ZOK (@RFail A f w) post.
Proof. intros HZ Hf post. exact (conj HZ (conj (proj2 (nub_fail f w) Hf) I)). Qed.
Lemma ZOK_ok {A} (a : A) w (post : A -> world -> Prop) : ZI w -> post a w -> ZOK (ROk a w) post.
Proof. intros HZ Hp. exact (conj HZ (conj I Hp)). Qed.

Section Step.
Variable beh : hinfo -> logent -> N -> script.

Lemma NInv_ready w0 w hl loc : NInv w0 -> w_hs w = w_hs w0 -> ready (sendable w0) (fun _ => True) hl loc w.
Proof.
  intros HN Eh hk w' _ [Hs _]. destruct (structureL_arch w w' Hs) as (Eh' & _). destruct (sm_get hk (w_hs w')) as [h|] eqn:E; [|exact I].
  split; [|intros; exact I]. apply sender_ok_sends, (HN hk). unfold hlive. now rewrite <- Eh, <- Eh'.
Qed.

Lemma run_handler_sent w h it tag loc x : In x (hr_sent (fst (run_handler beh w h it tag loc))) -> pushed (h_params h) x.
Proof.
  intros Hx. destruct (handler_rule _ _ _ (sent_in_walks (fun tg tag idx => sender_lookup (h_params h) tg tag = Some (Some idx)) []) beh w h it tag loc []
                         (fun _ _ _ H => H) (fun _ _ => I) ltac:(intros y []) x Hx) as [[]|X]. exact X.
Qed.

Lemma run_handlers_sent w0 hl : NInv w0 -> forall w it tag loc sent x, registries w = registries w0 -> w_hs w = w_hs w0 ->
  In x (snd (fst (fst (run_handlers beh hl w it tag loc sent)))) -> In x sent \/ item_ok w0 x.
Proof.
  intros HN w it tag loc sent x _ Hh. pose proof (handlers_rule _ _ _ (sent_in_walks (sendable w0) sent) beh hl w it tag loc sent (NInv_ready w0 w hl loc HN Hh) ltac:(intros y; now left)) as H.
  destruct (run_handlers beh hl w it tag loc sent) as [[[[w1 ev] sent'] taken] fl]. destruct H as (w' & H & _). cbn [fst snd]. intros Hx.
  destruct (H x Hx) as [X|[tg X]]; [now left|right]. unfold sendable, item_ok in *. destruct (qi_targeted x); [exact X|exact (proj1 X)].
Qed.

Lemma deliver_one_sent it w x : NInv w -> In x (fst (fst (deliver_one beh it w))) -> item_ok w x.
Proof.
  intros HN.
  assert (X : forall w1 s fl, sent_in (sendable w) [] w1 s fl -> In x s -> item_ok w x).
  { intros w1 s fl Hs Hx. destruct (Hs x Hx) as [[]|[tg X]]. unfold sendable, item_ok in *. destruct (qi_targeted x); [exact X|exact (proj1 X)]. }
  apply (deliver_one_rule beh _ _ _ (sent_in_walks (sendable w) [])) with (R := fun r => In x (fst (fst r)) -> item_ok w x);
    eauto using (NInv_ready w w); [intros y []|intros s []].
Qed.

Lemma YI_stable : stable (fun _ => True) YI.
Proof. intros w w' S _. exact (YI_frame _ _ (step_registries _ _ S) (hs_le_hv3 _ _ (step_hv3 _ _ S))). Qed.
Lemma ZI_kept : kept ZI.
Proof. exact (kept_and EI _ YI EI_kept (fun _ _ => I) stable_True YI_stable). Qed.
Lemma hv3_deliver_one it w : hv3 (snd (fst (deliver_one beh it w))) = hv3 w.
Proof. apply hv3_hfix, (r_deliver_one hfix); hfr. Qed.
Lemma deliver_one_DI it w : DI w -> DI (snd (fst (deliver_one beh it w))).
Proof. exact (kept_deliver_one beh DI DI_kept it w). Qed.
Lemma deliver_one_ZI it w : ZI w -> ZI (snd (fst (deliver_one beh it w))).
Proof. exact (kept_deliver_one beh ZI ZI_kept it w). Qed.
Lemma unwind_ZI q0 (st : wst) : ZI (fst st) -> ZI (fst (unwind_w q0 st)).
Proof. exact (kept_unwind_w ZI ZI_kept q0 st). Qed.

(* a propagation whose queued items name registered events keeps ZI and does not fail unchecked: every delivery finds its
   event (NoUB.deliver_one_no_ub) and pushes only what some live handler's Sender can produce *)
Theorem flush_ZOK q w : ZI w -> (forall x, In x q -> item_ok w x) -> ZOK (flush beh q w) (fun _ _ => True).
Proof.
  intros HZ HQ.
  destruct (flush_rule beh ZI item_ok (fun f => ~ ubf (Some f)) q w) as [Z Hf]; [| | | |exact HZ|exact HQ|].
  - intros it w0 HZ0 Qe. pose proof (deliver_one_keeps_registries beh it w0) as Hr. split; [now apply deliver_one_ZI|].
    destruct HZ0 as [[HD HS] (_ & _ & HN & _)]. split; [|split].
    + intros x Hin. apply (item_ok_reg w0); [exact Hr|]. exact (deliver_one_sent it w0 x HN Hin).
    + intros x Hx. now apply (item_ok_reg w0).
    + intros f Ef. pose proof (deliver_one_no_ub beh it w0 HD HS Qe) as Hn. rewrite Ef in Hn. exact Hn.
  - intros q0 w0. exact (kept_unwind ZI ZI_kept q0 w0).
  - intros w0 HZ0. exact HZ0.
  - exact (fun H => H).
  - split; [exact Z|split; [|now destruct (flush beh q w)]]. destruct (flush beh q w) as [a w'|f w']; [exact I|exact (proj2 (nub_fail f w') Hf)].
Qed.
End Step.

Lemma rbind_ev {A B} (r : res A) (f : A -> world -> res B) w :
  ev_le (res_world r) w -> (forall a w1, ev_le (res_world (f a w1)) w1) -> ev_le (res_world (rbind r f)) w.
Proof. intros H1 H2. destruct r as [a w1|e w1]; cbn [rbind res_world] in *; [eapply ev_le_trans; eauto|exact H1]. Qed.

Lemma nget_nrepeat_mono {A} (d : A) l n i : nget l i <> None -> nget (nrepeat_to l n d) i <> None.
Proof. rewrite nget_nrepeat_to. destruct (nget l i); [discriminate|tauto]. Qed.
Lemma nget_nset_mono {A} (l : list A) j x i : nget l i <> None -> nget (nset l j x) i <> None.
Proof.
  intros H. destruct (N.eq_dec j i) as [->|Hne]; [|now rewrite nget_nset_neq].
  rewrite nget_nset_eq; [discriminate|]. destruct (nget l i) eqn:E; [eapply nget_some_lt; eauto|tauto].
Qed.
Lemma gbi_insert_mono {V} (f : key -> V) m k m' i : SmInv m -> insert_with f m = Some (k, m') -> get_by_index m i <> None -> get_by_index m' i <> None.
Proof. intros S Ei H. destruct (get_by_index m i) as [[k0 v]|] eqn:E; [|tauto]. now rewrite (gbi_insert_old f m k m' i k0 v S Ei E). Qed.
Lemma insert_get_mono {V} (f : key -> V) m k m' k0 : SmInv m -> insert_with f m = Some (k, m') -> sm_get k0 m <> None -> sm_get k0 m' <> None.
Proof. intros S Ei X. rewrite (insert_get_other _ _ _ _ k0 S Ei); [exact X|]. intros ->. apply X. eapply insert_get_fresh; eauto. Qed.
Lemma insert_get_cases {V} (f : key -> V) m k m' k0 v : SmInv m -> insert_with f m = Some (k, m') -> sm_get k0 m' = Some v ->
  (k0 = k /\ v = f k) \/ sm_get k0 m = Some v.
Proof.
  intros S Ei H. destruct (key_eq_dec k0 k) as [->|Hne]; [left|right; now rewrite <- (insert_get_other _ _ _ _ k0 S Ei Hne)].
  rewrite (insert_get_new _ _ _ _ S Ei) in H. inversion H. auto.
Qed.

Section EvOps.
Variable beh : hinfo -> logent -> N -> script.

Lemma registries_flush q w : registries (res_world (flush beh q w)) = registries w.
Proof. apply (r_flush registries); fr. Qed.
Lemma ev_le_flush q w : ev_le (res_world (flush beh q w)) w.
Proof. apply ev_le_reg, registries_flush. Qed.
Lemma registries_ev_drop w t tag ev : registries (ev_drop w t tag ev) = registries w.
Proof. apply (r_ev_drop registries); fr. Qed.

End EvOps.

Lemma by_insert kd (by_ : list (N * key)) (ev m : smap einfo) tag k : SmInv ev ->
  insert_with (fun _ => mkE tag kd) ev = Some (k, m) ->
  (forall t k0, alookup t by_ = Some k0 -> exists info, sm_get k0 ev = Some info /\ e_tag info = t) ->
  forall t k0, alookup t (ainsert tag k by_) = Some k0 -> exists info, sm_get k0 m = Some info /\ e_tag info = t.
Proof. intros S Ei. exact (byok_insert e_tag _ ev k m tag by_ S Ei eq_refl). Qed.

Lemma greg_of_by w tag k : ByInv w -> GlInv w -> alookup tag (w_gby w) = Some k -> greg w (fst k).
Proof.
  intros [B _] G H. destruct (B tag k H) as (info & A & _). apply gbi_of_get in A.
  assert (X : get_by_index (w_gev w) (fst k) <> None) by (rewrite A; discriminate). split; [exact X|now apply G].
Qed.
Lemma treg_of_by w tag k : ByInv w -> alookup tag (w_tby w) = Some k -> treg w (fst k).
Proof. intros [_ B] H. destruct (B tag k H) as (info & A & _). apply gbi_of_get in A. unfold treg. rewrite A. discriminate. Qed.
Lemma gby_known w tag k : YI w -> alookup tag (w_gby w) = Some k -> gknown w tag k.
Proof.
  intros ([B _] & G & _) H. destruct (B tag k H) as (info & A & At). pose proof (gbi_of_get _ _ _ A) as Ag.
  assert (X : get_by_index (w_gev w) (fst k) <> None) by (rewrite Ag; discriminate).
  split; [split; [exact X|now apply G]|split; [rewrite A; discriminate|]].
  intros k1 info1 Hg1. rewrite Ag in Hg1. inversion Hg1; subst k1 info1. exact At.
Qed.
Lemma tby_known w tag k : YI w -> alookup tag (w_tby w) = Some k -> tknown w tag k.
Proof. intros ([_ B] & _) H. destruct (B tag k H) as (info & A & _). split; [unfold treg; rewrite (gbi_of_get _ _ _ A)|rewrite A]; discriminate. Qed.

Lemma queued_ok w x : YI w -> queued w x -> item_ok w x.
Proof.
  intros HY (tag & k & Ek & El). unfold item_ok. rewrite <- Ek. destruct (qi_targeted x); [exact (proj1 (tby_known w tag k HY El))|exact (proj1 (gby_known w tag k HY El))].
Qed.

Lemma gev_entry_YI w tag k m : SmInv (w_gev w) -> YI w -> insert_with (fun _ => mkE tag (gkind tag)) (w_gev w) = Some (k, m) ->
  YI (gev_entry_world w tag k m) /\ ev_le (gev_entry_world w tag k m) w.
Proof.
  intros SG (HB & HGl & HN & HRc) Ei. set (w2 := gev_entry_world w tag k m).
  assert (Eg : w_gev w2 = m) by reflexivity. assert (El : w_glists w2 = nrepeat_to (w_glists w) (N.to_nat (fst k) + 1) hl_new) by reflexivity.
  assert (Hle : ev_le w2 w).
  { apply ev_le_intro; [|intros i X; exact X| |intros k0 X; exact X|].
    - intros i [A B]. split; [rewrite Eg; eapply gbi_insert_mono; eauto|rewrite El; now apply nget_nrepeat_mono].
    - intros k0 X. rewrite Eg. exact (insert_get_mono _ _ _ _ k0 SG Ei X).
    - intros i [k0 x0] X. rewrite Eg. exact (gbi_insert_old _ _ _ _ _ _ _ SG Ei X). }
  assert (Hnew : greg w2 (fst k)).
  { split; [rewrite Eg; erewrite gbi_insert_new by eauto; discriminate|]. rewrite El, nget_nrepeat_to. destruct (nget (w_glists w) (fst k)); [discriminate|].
    replace (fst k <? N.of_nat (N.to_nat (fst k) + 1)) with true; [discriminate|]. symmetry. apply N.ltb_lt. lia. }
  assert (Hh : hs_le w2 w) by now apply hs_le_hs.
  split; [|exact Hle].
  split; [|split; [|split; [exact (NInv_le _ _ Hh Hle HN)|exact (RcvI_le _ _ Hh Hle HRc)]]].
  - destruct HB as [B1 B2]. split; [exact (by_insert (gkind tag) (w_gby w) (w_gev w) m tag k SG Ei B1)|exact B2].
  - intros i Hi. destruct (N.eq_dec i (fst k)) as [->|Hne]; [exact (proj2 Hnew)|]. rewrite Eg, (gbi_insert_other _ _ _ _ i SG Ei Hne) in Hi.
    rewrite El. apply nget_nrepeat_mono. now apply HGl.
Qed.

Lemma gev_entry_ZI w tag k m : ZI w -> insert_with (fun _ => mkE tag (gkind tag)) (w_gev w) = Some (k, m) ->
  let w2 := set_glists (set_gev w m (ainsert tag k (w_gby w))) (nrepeat_to (w_glists (set_gev w m (ainsert tag k (w_gby w)))) (N.to_nat (fst k) + 1) hl_new) in
  ZI w2 /\ ev_le w2 w /\ greg w2 (fst k) /\ gtagged w2 (fst k) tag.
Proof.
  intros [[HD HS] HY] Ei. destruct (gev_entry_YI w tag k m (proj1 (DI_regs _ HD)) HY Ei) as (Y2 & Hle).
  destruct (gby_known _ tag k Y2 (alookup_ainsert_eq _ _ _)) as (Hg & _ & Ht).
  split; [split; [split; [exact (gev_entry_DI w tag k m HD Ei)|eapply SInv_le; [|exact HS]; now apply hs_le_hs]|exact Y2]|split; [exact Hle|split; [exact Hg|exact Ht]]].
Qed.

Lemma tev_entry_YI w0 tag kind k m : SmInv (w_tev w0) -> YI w0 -> insert_with (fun _ => mkE tag kind) (w_tev w0) = Some (k, m) ->
  YI (tev_entry_world w0 tag kind k m) /\ ev_le (tev_entry_world w0 tag kind k m) w0.
Proof.
  intros ST (HB0 & HG0 & HN0 & HR0) Ei. set (w1 := tev_entry_world w0 tag kind k m).
  assert (E : w_tev w1 = m /\ w_tby w1 = ainsert tag k (w_tby w0) /\ w_gev w1 = w_gev w0 /\ w_gby w1 = w_gby w0 /\ w_glists w1 = w_glists w0 /\ w_hs w1 = w_hs w0)
    by (unfold w1, tev_entry_world; destruct kind; repeat split).
  destruct E as (Et & Etb & Eg1 & Eg2 & Eg3 & Eg4).
  assert (Hle : ev_le w1 w0).
  { apply ev_le_intro.
    - intros i X. unfold greg in *. now rewrite Eg1, Eg3.
    - intros i X. unfold treg in *. rewrite Et. eapply gbi_insert_mono; eauto.
    - intros k0 X. now rewrite Eg1.
    - intros k0 X. rewrite Et. exact (insert_get_mono _ _ _ _ k0 ST Ei X).
    - intros i x X. now rewrite Eg1. }
  assert (Hh : hs_le w1 w0) by now apply hs_le_hs.
  split; [|exact Hle].
  split; [|split; [|split; [exact (NInv_le _ _ Hh Hle HN0)|exact (RcvI_le _ _ Hh Hle HR0)]]].
  - destruct HB0 as [B1 B2]. split; [rewrite Eg1, Eg2; exact B1|]. rewrite Et, Etb. eapply by_insert; eauto.
  - unfold GlInv. rewrite Eg1, Eg3. exact HG0.
Qed.

Lemma tev_entry_ZI w0 tag kind k m : ZI w0 -> kind_comp_live w0 kind -> insert_with (fun _ => mkE tag kind) (w_tev w0) = Some (k, m) ->
  ZI (tev_entry_world w0 tag kind k m) /\ ev_le (tev_entry_world w0 tag kind k m) w0 /\ treg (tev_entry_world w0 tag kind k m) (fst k).
Proof.
  intros [[HD0 HS0] HY0] Hl Ei. destruct (tev_entry_YI w0 tag kind k m (proj1 (proj2 (DI_regs _ HD0))) HY0 Ei) as (Y1 & Hle).
  assert (Ht : treg (tev_entry_world w0 tag kind k m) (fst k)) by (apply (tby_known _ tag k Y1); unfold tev_entry_world; destruct kind; apply alookup_ainsert_eq).
  split; [split; [split; [exact (tev_entry_DI w0 tag kind k m HD0 Hl Ei)|eapply SInv_le; [|exact HS0]]|exact Y1]|split; [exact Hle|exact Ht]].
  apply hs_le_hs. unfold tev_entry_world. destruct kind; reflexivity.
Qed.

(* a handler under construction: its Sender parameters and its receiver *)
Definition CfInv3 (c : hconfig) (w : world) : Prop :=
  forall g t, In (RSender g t) (cf_params c) ->
    (forall tag i, In (tag, i) g -> smem i (cf_sg c) = true /\ greg w i /\ gtagged w i tag) /\
    (forall tag i, In (tag, i) t -> smem i (cf_st c) = true /\ treg w i).
Lemma CfInv3_le c w w' : ev_le w' w -> CfInv3 c w -> CfInv3 c w'.
Proof. intros Hle H g t Hin. exact (sent_ok_le _ _ _ _ _ _ Hle (H g t Hin)). Qed.
Lemma CfInv3_cfg0 w : CfInv3 cfg0 w. Proof. intros g t []. Qed.
Definition CfR (c : hconfig) (w : world) : Prop :=
  match cf_recv c with RcOk (RvGlobal ek) => sm_get ek (w_gev w) <> None | RcOk (RvTargeted ek) => sm_get ek (w_tev w) <> None | _ => True end.
Lemma CfR_le c w w' : ev_le w' w -> CfR c w -> CfR c w'.
Proof. intros [[_ [K1 K2]] _]. unfold CfR. destruct (cf_recv c) as [|[ek|ek]|]; auto. Qed.
Lemma CfR_cfg0 w : CfR cfg0 w. Proof. exact I. Qed.

Lemma cfg_known_Cf c w : YI w -> cfg_known c w -> CfInv3 c w /\ CfR c w.
Proof.
  intros HY [A B]. split.
  - intros g t Hin. destruct (A g t Hin) as [Ag At]. split; intros tag i X; [destruct (Ag tag i X) as (S & k & Ek & El)|destruct (At tag i X) as (S & k & Ek & El)]; cbn [fst snd] in Ek, El; subst i; (split; [exact S|]).
    + destruct (gby_known w tag k HY El) as (G & _ & T). exact (conj G T).
    + exact (proj1 (tby_known w tag k HY El)).
  - unfold CfR. destruct (cf_recv c) as [|[ek|ek]|]; try exact I; destruct B as [tag El]; [exact (proj1 (proj2 (gby_known w tag ek HY El)))|exact (proj2 (tby_known w tag ek HY El))].
Qed.

Definition new_hinfo (w1 : world) (sh : hshape) (c : hconfig) (rv : recvid) (acc : access) (k : key) : hinfo :=
  mkH k (w_hctr w1) (sh_tid sh) rv (match acc with AcReadWrite => true | _ => false end)
      (cf_filter c) (cf_sg c) (cf_st c) (fold_left ca_or (cf_cas c) ca_false) (cf_refs c) (sh_prio sh) (cf_params c) (sh_script sh).
Definition new_glists (w1 : world) (sh : hshape) (rv : recvid) (k : key) : list (hlist key) :=
  match rv with
  | RvGlobal ek =>
      let gl0 := nrepeat_to (w_glists w1) (N.to_nat (fst ek) + 1) hl_new in
      match nget gl0 (fst ek) with
      | Some l => nset gl0 (fst ek) (hl_insert l k (sh_prio sh))
      | None => gl0 end
  | RvTargeted _ => w_glists w1 end.
Definition new_hworld (w1 : world) (sh : hshape) (rv : recvid) (k : key) (hs : smap hinfo) : world :=
  archs_register_handler
    (set_hreg w1 hs (new_glists w1 sh rv k) (match sh_tid sh with Some t => ainsert t k (w_hby w1) | None => w_hby w1 end)
              (w_hctr w1 + 1) (w_horder w1 ++ [(w_hctr w1, k)])) k.

Lemma registries_archs_register_handler w hk : registries (archs_register_handler w hk) = registries w.
Proof. now apply (archs_register_handler_frame registries). Qed.

Lemma add_global_event_entry_DI w tag k m : DI w -> insert_with (fun _ => mkE tag (gkind tag)) (w_gev w) = Some (k, m) ->
  DI (set_glists (set_gev w m (ainsert tag k (w_gby w))) (nrepeat_to (w_glists (set_gev w m (ainsert tag k (w_gby w)))) (N.to_nat (fst k) + 1) hl_new)).
Proof. exact (gev_entry_DI w tag k m). Qed.
Lemma add_component_entry_DI w tag k m : DI w -> alookup tag (w_cby w) = None -> insert_with (fun _ => mkC tag [] [] []) (w_comps w) = Some (k, m) ->
  DI (set_comps w m (ainsert tag k (w_cby w))).
Proof. intros HD El Ei. exact (proj1 (DI_layer_J script_beh _) (place_J script_beh (DI_layer script_beh) _ _ _ (p_comp_entry w tag k m El Ei) (proj2 (DI_layer_J script_beh w) HD))). Qed.
Lemma add_handler_entry_DI w1 sh c rv acc k hs : DI w1 -> CfInv c ->
  insert_with (new_hinfo w1 sh c rv acc) (w_hs w1) = Some (k, hs) -> DI (new_hworld w1 sh rv k hs).
Proof.
  intros HD1 HC Ei. unfold new_hworld, new_glists. unfold new_hinfo in Ei.
  destruct (DI_parts _ HD1) as (HF1 & HH1 & HO1 & HX1). destruct HD1 as [HB1 _].
  split; [split|].
  - destruct (AI_parts _ (proj1 HB1)) as ([HR1 HK1] & _ & HG1).
    match goal with |- AI (archs_register_handler ?w2 k) => destruct (archs_register_handler_structure w2 k) as [Hs Hg]; split; [split; [split|]|] end.
    + match goal with |- RInv (archs_register_handler ?w2 k) => apply (RInv_structure w2); [exact Hs|exact Hg|exact HR1] end.
    + match goal with |- KInv (archs_register_handler ?w2 k) => apply (KInv_kreg w2); [apply kreg_archs_register_handler|exact (proj1 (structure_cshape _ _ Hs))|exact HK1] end.
    + eapply (add_handler_entry_HL w1 _ k hs rv (sh_prio sh) (cf_filter c)); [exact HH1|exact Ei|]. intros k0. repeat split.
    + unfold GInv in *. rewrite Hg. exact HG1.
  - eapply (add_handler_entry_O w1 _ k hs rv (sh_prio sh) (cf_filter c)); [exact HH1|exact HO1|exact Ei|]. intros k0. repeat split.
  - eapply (add_handler_entry_XI w1 _ k hs); [exact (proj1 HH1)|exact HX1|exact Ei|reflexivity|]. cbn [h_params h_archfilter].
    intros p q cache Hin Hq. destruct (CfInv_pinv c (mkA 0 [] [] 0 0 [] [] [] []) q p cache HC Hin Hq) as [A _]. split; [exact A|].
    intros a Hm. exact (proj2 (CfInv_pinv c a q p cache HC Hin Hq) Hm).
Qed.

Lemma handler_entry_YI w1 sh c rv acc k hs : SmInv (w_hs w1) -> YI w1 -> CfInv3 c w1 -> CfR c w1 -> cf_recv c = RcOk rv ->
  insert_with (new_hinfo w1 sh c rv acc) (w_hs w1) = Some (k, hs) -> YI (new_hworld w1 sh rv k hs) /\ ev_le (new_hworld w1 sh rv k hs) w1.
Proof.
  intros S (HB1 & HG1 & HN1 & HR1) HC3 HCR Erv Ei.
  set (w2 := set_hreg w1 hs (new_glists w1 sh rv k) (match sh_tid sh with Some t => ainsert t k (w_hby w1) | None => w_hby w1 end) (w_hctr w1 + 1) (w_horder w1 ++ [(w_hctr w1, k)])).
  assert (Hgl : forall i, nget (w_glists w1) i <> None -> nget (new_glists w1 sh rv k) i <> None).
  { intros i Hi. unfold new_glists. destruct rv as [ek|ek]; [|exact Hi]. cbn zeta. destruct (nget (nrepeat_to _ _ _) (fst ek)); [apply nget_nset_mono|]; now apply nget_nrepeat_mono. }
  assert (Hle : ev_le w2 w1) by (apply ev_le_intro; try (intros ? X; exact X); [intros i [A B]; split; [exact A|now apply Hgl]|intros i x X; exact X]).
  assert (HY2 : YI w2).
  { split; [exact HB1|split; [intros i Hi; apply Hgl; now apply HG1|split]]; intros hk h Hl; destruct (insert_get_cases _ _ _ _ _ _ S Ei Hl) as [[-> ->]|Hl1].
    - intros g t Hin. unfold pss, new_hinfo in Hin. cbn [h_params] in Hin. apply in_map_iff in Hin as (p & Hp & Hin). destruct p; try discriminate.
      cbn [psend] in Hp. inversion Hp; subst. exact (sent_ok_le _ _ _ _ _ _ Hle (HC3 g t Hin)).
    - eapply sender_ok_view; [reflexivity|exact Hle|exact (HN1 hk h Hl1)].
    - unfold recv_ok, new_hinfo. cbn [h_recv]. unfold CfR in HCR. rewrite Erv in HCR. exact HCR.
    - exact (HR1 hk h Hl1). }
  destruct (YI_step (new_hworld w1 sh rv k hs) w2 (registries_archs_register_handler w2 k) (hs_le_hv3 _ _ (hv3_archs_register_handler w2 k)) HY2) as [Y3 L3].
  split; [exact Y3|exact (ev_le_trans _ _ _ L3 Hle)].
Qed.

Lemma add_handler_entry_ZI w1 sh c rv acc k hs : ZI w1 -> CfInv c -> CfInv2 c -> CfInv3 c w1 -> CfR c w1 -> cf_recv c = RcOk rv ->
  insert_with (new_hinfo w1 sh c rv acc) (w_hs w1) = Some (k, hs) -> ZI (new_hworld w1 sh rv k hs).
Proof.
  intros [[HD1 HS1] HY1] HC HC2 HC3 HCR Erv Ei. destruct (DI_regs _ HD1) as (_ & _ & S & _).
  split; [split; [exact (add_handler_entry_DI w1 sh c rv acc k hs HD1 HC Ei)|]|exact (proj1 (handler_entry_YI w1 sh c rv acc k hs S HY1 HC3 HCR Erv Ei))].
  eapply SInv_le; [exact (hs_le_hv3 _ _ (hv3_archs_register_handler _ k))|]. intros hk h Hl.
  destruct (insert_get_cases _ _ _ _ _ _ S Ei Hl) as [[-> ->]|Hl1]; [|exact (HS1 hk h Hl1)].
  destruct HC2 as [HA HBc]. split; [exact HA|]. intros ek Hrv q Hin. cbn [h_recv new_hinfo] in Hrv. subst rv. specialize (HBc (ex_intro _ q Hin)). rewrite Erv in HBc. exact HBc.
Qed.

Lemma YI_le w' w : w_gev w' = w_gev w -> w_gby w' = w_gby w -> w_tev w' = w_tev w -> w_tby w' = w_tby w ->
  (forall i, nget (w_glists w) i <> None -> nget (w_glists w') i <> None) -> hs_le w' w -> YI w -> YI w'.
Proof.
  intros E1 E2 E3 E4 Hg Hh (HB & HG & HN & HR).
  assert (He : ev_le w' w) by (apply ev_le_intro; [intros i [A B]; split; [now rewrite E1|now apply Hg]|intros i X; unfold treg in *; now rewrite E3|intros k0 X; now rewrite E1|intros k0 X; now rewrite E3|intros i x X; now rewrite E1]).
  split; [|split; [|split]].
  - unfold ByInv. rewrite E1, E2, E3, E4. exact HB.
  - intros i Hi. rewrite E1 in Hi. apply Hg. now apply HG.
  - eapply NInv_le; eauto.
  - eapply RcvI_le; eauto.
Qed.

Lemma handler_exit_YI w1 k h w2 : YI w1 -> handlers_remove w1 k = Some (h, w2) -> YI (archs_remove_handler w2 h).
Proof.
  intros HY Eh. pose proof (hs_le_handler_exit w1 k h w2 Eh) as Hle.
  destruct (handlers_remove_inv w1 k h w2 Eh) as (hs & Er & ->).
  apply (YI_le _ w1); try reflexivity; [|exact Hle|exact HY].
  intros i Hi. unfold archs_remove_handler. cbn [w_glists set_archs set_hreg].
  destruct (h_recv h) as [ek|ek]; [|exact Hi]. destruct (nget (w_glists w1) (fst ek)); [now apply nget_nset_mono|exact Hi].
Qed.

Lemma registries_rc_step cidx ctag w ai : registries (rc_step cidx ctag w ai) = registries w.
Proof. apply rc_step_cases; reflexivity. Qed.
Lemma registries_archs_remove_component cidx ctag w l : registries (archs_remove_component w cidx ctag l) = registries w.
Proof. apply (arc_pres cidx ctag registries); reflexivity. Qed.

Lemma in_handlers_in_order w hk h : HInv w -> hlive w hk h -> In h (handlers_in_order w).
Proof.
  intros (_ & H1 & _) Hl. destruct (H1 hk h Hl) as (_ & Hin & _). unfold handlers_in_order. apply in_flat_map. exists (h_order h, hk). split; [exact Hin|].
  cbn [snd]. unfold hlive in Hl. rewrite Hl. now left.
Qed.

Lemma by_remove (by_ : list (N * key)) (ev m : smap einfo) k info : SmInv ev -> sm_remove k ev = Some (info, m) ->
  (forall t k0, alookup t by_ = Some k0 -> exists i0, sm_get k0 ev = Some i0 /\ e_tag i0 = t) ->
  forall t k0, alookup t (aremove (e_tag info) by_) = Some k0 -> exists i0, sm_get k0 m = Some i0 /\ e_tag i0 = t.
Proof. exact (byok_remove e_tag ev k info m by_). Qed.
Lemma gbi_remove_mono {V} k (m : smap V) v m' i : sm_remove k m = Some (v, m') -> get_by_index m' i <> None -> i <> fst k /\ get_by_index m i <> None.
Proof.
  intros Er H. destruct (N.eq_dec i (fst k)) as [->|Hne]; [rewrite (gbi_remove_self _ _ _ _ Er) in H; tauto|]. split; [exact Hne|]. now rewrite <- (gbi_remove_other _ _ _ _ i Er Hne).
Qed.
Lemma gbi_remove_keep {V} k (m : smap V) v m' i : sm_remove k m = Some (v, m') -> i <> fst k -> get_by_index m i <> None -> get_by_index m' i <> None.
Proof. intros Er Hne H. now rewrite (gbi_remove_other _ _ _ _ i Er Hne). Qed.

(* after the handlers that send or receive an event are removed, no live handler can push it *)
Lemma survivors w1 w2 (P : hinfo -> bool) : HInv w1 -> hs_le w2 w1 ->
  (forall k, In k (map h_key (filter P (handlers_in_order w1))) -> sm_get k (w_hs w2) = None) ->
  (forall h h', hstat h' = hstat h -> P h' = P h) ->
  forall hk h, hlive w2 hk h -> P h = false.
Proof.
  intros HH Hle Hgone HP hk h Hl. destruct (Hle hk h Hl) as (h1 & Hl1 & Hv). assert (Es : hstat h = hstat h1) by (unfold hview3 in Hv; congruence).
  destruct (P h) eqn:E; [|reflexivity]. exfalso. rewrite (HP h1 h Es) in E.
  assert (Hk : h_key h1 = hk) by (destruct HH as (_ & H1 & _); exact (proj1 (H1 hk h1 Hl1))).
  assert (X : sm_get hk (w_hs w2) = None).
  { apply Hgone. apply in_map_iff. exists h1. split; [exact Hk|]. apply filter_In. split; [eapply in_handlers_in_order; eauto|exact E]. }
  unfold hlive in Hl. congruence.
Qed.

Lemma gev_exit_YI k w2 info m : SmInv (w_gev w2) -> YI w2 -> sm_remove k (w_gev w2) = Some (info, m) ->
  (forall hk h, hlive w2 hk h -> recvid_eqb (h_recv h) (RvGlobal k) || smem (fst k) (h_sent_g h) = false) ->
  YI (set_gev w2 m (aremove (e_tag info) (w_gby w2))).
Proof.
  intros SG (HB2 & HG2 & HN2 & HR2) Er Hsurv. split; [|split; [|split]].
  - destruct HB2 as [B1 B2]. split; [exact (by_remove (w_gby w2) (w_gev w2) m k info SG Er B1)|exact B2].
  - intros i Hi. destruct (gbi_remove_mono _ _ _ _ _ Er Hi) as [_ X]. now apply HG2.
  - intros hk h Hl g t Hin. destruct (HN2 hk h Hl g t Hin) as [A B]. split; [|exact B].
    intros tag i X. destruct (A tag i X) as [A1 [[A2 A3] A4]].
    assert (Hne : i <> fst k) by (intros ->; specialize (Hsurv hk h Hl); rewrite A1, orb_true_r in Hsurv; discriminate).
    split; [exact A1|]. split; [split; [exact (gbi_remove_keep _ _ _ _ _ Er Hne A2)|exact A3]|].
    intros k1 info1 Hg1. apply (A4 k1 info1). rewrite <- (gbi_remove_other _ _ _ _ i Er Hne). exact Hg1.
  - intros hk h Hl. pose proof (HR2 hk h Hl) as Hr. pose proof (Hsurv hk h Hl) as Hp. unfold recv_ok in *.
    destruct (h_recv h) as [ek|ek] eqn:Erv; [|exact Hr]. cbn [w_gev set_gev]. rewrite (remove_get_other k (w_gev w2) info m ek SG Er); [exact Hr|].
    intros ->. cbn [recvid_eqb] in Hp. rewrite (proj2 (key_eqb_spec k k) eq_refl) in Hp. discriminate.
Qed.

Lemma tev_exit_YI k w2 info m : SmInv (w_tev w2) -> YI w2 -> sm_remove k (w_tev w2) = Some (info, m) ->
  (forall hk h, hlive w2 hk h -> recvid_eqb (h_recv h) (RvTargeted k) || smem (fst k) (h_sent_t h) = false) ->
  YI (tev_exit_world w2 k info m).
Proof.
  intros ST (HB2 & HG2 & HN2 & HR2) Er Hsurv. set (w4 := tev_exit_world w2 k info m).
  assert (E : w_gev w4 = w_gev w2 /\ w_gby w4 = w_gby w2 /\ w_glists w4 = w_glists w2 /\ w_hs w4 = w_hs w2 /\ w_tev w4 = m /\ w_tby w4 = aremove (e_tag info) (w_tby w2))
    by (unfold w4, tev_exit_world; cbv zeta; destruct (e_kind info); repeat split).
  destruct E as (E1 & E2 & E3 & E4 & E5 & E6). split; [|split; [|split]].
  - destruct HB2 as [B1 B2]. split; [rewrite E1, E2; exact B1|]. rewrite E5, E6. eapply by_remove; eauto.
  - unfold GlInv. rewrite E1, E3. exact HG2.
  - intros hk h Hl. unfold hlive in Hl. rewrite E4 in Hl. intros g t Hin. destruct (HN2 hk h Hl g t Hin) as [A B]. split.
    + intros tag i X. destruct (A tag i X) as [A1 [[A2 A3] A4]]. split; [exact A1|]. split; [split; [now rewrite E1|now rewrite E3]|]. unfold gtagged. now rewrite E1.
    + intros tag i X. destruct (B tag i X) as [A1 A2]. split; [exact A1|]. unfold treg in *. rewrite E5.
      eapply gbi_remove_keep; [exact Er| |exact A2]. intros ->. specialize (Hsurv hk h Hl). rewrite A1, orb_true_r in Hsurv. discriminate.
  - intros hk h Hl. unfold hlive in Hl. rewrite E4 in Hl. pose proof (HR2 hk h Hl) as Hr. pose proof (Hsurv hk h Hl) as Hp. unfold recv_ok in *.
    destruct (h_recv h) as [ek|ek] eqn:Erv; [now rewrite E1|]. rewrite E5, (remove_get_other k (w_tev w2) info m ek ST Er); [exact Hr|].
    intros ->. cbn [recvid_eqb] in Hp. rewrite (proj2 (key_eqb_spec k k) eq_refl) in Hp. discriminate.
Qed.

Section ZOps.
Variable beh : hinfo -> logent -> N -> script.

Lemma flush_YI q w : EI w -> YI w -> (forall x, In x q -> item_ok w x) ->
  YI (res_world (flush beh q w)) /\ ev_le (res_world (flush beh q w)) w /\ match flush beh q w with RFail f _ => ~ ubf (Some f) | ROk _ _ => True end.
Proof.
  intros HE HY HQ. destruct (flush_ZOK beh q w (conj HE HY) HQ) as ([_ Y] & Hn & _). split; [exact Y|split; [apply ev_le_flush|]].
  destruct (flush beh q w) as [a w'|f w']; [exact I|exact (proj1 (nub_fail f w') Hn)].
Qed.

Lemma remove_handler_gone k w b w' : EI w -> remove_handler beh k w = ROk b w' -> sm_get k (w_hs w') = None.
Proof.
  intros HE. unfold remove_handler. destruct (sm_get k (w_hs w)) eqn:Eg; [|intros E; inversion E; subst; exact Eg].
  pose proof (send_global_tri beh (EI_layer beh) G_RMH (mkEv 0 0 k) w (proj2 (EI_layer_J beh w) HE)) as H1.
  destruct (send_global beh RFUEL G_RMH (mkEv 0 0 k) w) as [[] w1|]; [|discriminate]. apply proj1 in H1. apply -> EI_layer_J in H1. cbn [rbind].
  unfold handlers_remove. destruct (sm_remove k (w_hs w1)) as [[h1 hs]|] eqn:Er; [|discriminate]. intros E. inversion E.
  exact (remove_get_gone _ _ _ _ (proj1 (proj2 (proj2 (DI_regs _ (proj1 H1))))) Er).
Qed.
Lemma remove_handlers_gone ks : forall w w', EI w -> remove_handlers beh ks w = ROk tt w' -> forall k, In k ks -> sm_get k (w_hs w') = None.
Proof.
  induction ks as [|k t IH]; intros w w' HE E k0 Hin; [destruct Hin|]. cbn [remove_handlers] in E.
  pose proof (remove_handler_keeps beh (EI_layer beh) k w (proj2 (EI_layer_J beh w) HE)) as [J1 _]. pose proof (remove_handler_gone k w) as G.
  destruct (remove_handler beh k w) as [b w1|]; [|discriminate]. apply -> EI_layer_J in J1. cbn [rbind res_world] in *.
  destruct Hin as [<-|Hin]; [|exact (IH w1 w' J1 E k0 Hin)].
  destruct (sm_get k (w_hs w')) as [h|] eqn:Eg; [|reflexivity]. pose proof (hs_le_remove_handlers beh t w1) as Hle. rewrite E in Hle.
  destruct (Hle k h Eg) as (h' & X & _). unfold hlive in X. rewrite (G b w1 HE eq_refl) in X. discriminate.
Qed.
(* the filters of remove_*_event and remove_component look at the static part of a handler only *)
Lemma users_gone (f : hinfo -> bool) w1 w2 : EI w1 ->
  remove_handlers beh (map h_key (filter (fun h => f (hstat h)) (handlers_in_order w1))) w1 = ROk tt w2 ->
  forall hk h, hlive w2 hk h -> f (hstat h) = false.
Proof.
  intros HE E. pose proof (hs_le_remove_handlers beh (map h_key (filter (fun h => f (hstat h)) (handlers_in_order w1))) w1) as Hle. rewrite E in Hle.
  exact (survivors w1 w2 (fun h => f (hstat h)) (proj2 (proj2 (DI_regs _ (proj1 HE)))) Hle (remove_handlers_gone _ w1 w2 HE E) (fun h h' Es => f_equal f Es)).
Qed.

Definition YI_over : Layer beh EI.
Proof.
  refine {| lJ := YI; lle := ev_le; lE := fun f => ~ ubf (Some f) |}.
  - exact ev_le_refl.
  - exact ev_le_trans.
  - intros n H. exact H.
  - intros b w w' Hp HE HY _.
    destruct Hp as [w w' Hq|w tag k m _ Ei|w tag k m _ _|w0 tag kind k m _ _ _ Ei|sh w c w1 k w3 HC _ Eh|w1 k h w2 Eh|k w w1 w2 info m _ _ [HE1 _] E2 Er|k w w1 w2 info m _ _ [HE1 _] E2 Er].
    + exact (YI_step _ _ (proj2 Hq) (hs_le_hs _ _ (proj1 (quiet_fields _ _ Hq))) HY).
    + exact (gev_entry_YI w tag k m (proj1 (DI_regs _ (proj1 HE))) HY Ei).
    + exact (YI_step (comp_entry_world w tag k m) w eq_refl (hs_le_hs _ _ eq_refl) HY).
    + exact (tev_entry_YI w0 tag kind k m (proj1 (proj2 (DI_regs _ (proj1 HE)))) HY Ei).
    + destruct (handler_entry_inv sh c w1 k w3 Eh) as (rv & acc & hs & Erv & _ & Ei & ->). destruct (cfg_known_Cf c w1 HY HC) as [HC3 HCR].
      exact (handler_entry_YI w1 sh c rv acc k hs (proj1 (proj2 (proj2 (DI_regs _ (proj1 HE))))) HY HC3 HCR Erv Ei).
    + exact (conj (handler_exit_YI w1 k h w2 HY Eh) I).
    + exact (conj (gev_exit_YI k w2 info m (proj1 (DI_regs _ (proj1 HE))) HY Er (users_gone (fun h => recvid_eqb (h_recv h) (RvGlobal k) || smem (fst k) (h_sent_g h)) w1 w2 HE1 E2)) I).
    + exact (conj (tev_exit_YI k w2 info m (proj1 (proj2 (DI_regs _ (proj1 HE)))) HY Er (users_gone (fun h => recvid_eqb (h_recv h) (RvTargeted k) || smem (fst k) (h_sent_t h)) w1 w2 HE1 E2)) I).
  - intros q w HE HY HQ _. apply (flush_YI q w HE HY). intros x Hx. exact (queued_ok w x HY (HQ x Hx)).
Defined.

(* World::remove_component ends by removing the component's archetypes, which touches no registry and no handler's static part *)
Lemma YI_comp_exit : comp_exit_ok YI_over.
Proof.
  intros k w w1 dk w2 w3 w4 ci w5 ci' m _ _ _ _ _ _ _ _ _ _ _ _ _ _ _ _ _ HY5 _ _. apply (YI_frame _ w5); [| |exact HY5].
  - unfold comp_exit_world. change (registries (refresh_cursor ?x)) with (registries x). now rewrite registries_archs_remove_component.
  - eapply hs_le_trans; [apply hs_le_hs; reflexivity|]. eapply hs_le_trans; [apply hs_le_archs_remove_component|]. now apply hs_le_hs.
Qed.

Definition ZI_layer : Layer beh (fun _ => True) := stack (EI_layer beh) YI_over (fun w _ HJ => proj1 (EI_layer_J beh w) HJ).
Lemma ZI_layer_J w : lJ ZI_layer w <-> ZI w.
Proof. split; intros [A B]; (split; [apply (EI_layer_J beh w); exact A|exact B]). Qed.
Lemma ZI_comp_exit : comp_exit_ok ZI_layer.
Proof. apply stack_comp_exit; [apply EI_comp_exit|exact YI_comp_exit]. Qed.

Lemma keeps_ZOK {A} (r : res A) : keeps beh ZI_layer r -> ZOK r (fun _ _ => True).
Proof.
  intros [J X]. split; [exact (proj1 (ZI_layer_J _) J)|].
  destruct r as [a w'|f w']; [exact (conj I I)|exact (conj (proj2 (nub_fail f w') (proj2 X)) I)].
Qed.

Lemma tri_ZOK {A} (r : res A) w Q : tri beh ZI_layer w r Q -> ZOK r (fun a w' => ev_le w' w /\ Q a w').
Proof.
  destruct r as [a w'|f w']; intros (J & L & X); (split; [exact (proj1 (ZI_layer_J _) J)|]);
    [exact (conj I (conj (proj2 (proj1 L)) X))|exact (conj (proj2 (nub_fail f w') (proj2 X)) I)].
Qed.

Lemma flush_ZOK_le q w w0 : ZI w -> (forall x, In x q -> item_ok w x) -> ev_le w w0 -> ZOK (flush beh q w) (fun _ w' => ev_le w' w0).
Proof.
  intros HZ HQ Hle. destruct (flush_ZOK beh q w HZ HQ) as (Z & Nn & _). pose proof (ev_le_trans _ _ _ (ev_le_flush beh q w) Hle) as H.
  destruct (flush beh q w); [exact (conj Z (conj Nn H))|exact (conj Z (conj Nn I))].
Qed.
Lemma gev_ZOK fuel : forall tag w, ZI w ->
  ZOK (add_global_event beh fuel tag w) (fun k w' => ev_le w' w /\ greg w' (fst k) /\ sm_get k (w_gev w') <> None /\ gtagged w' (fst k) tag) /\
  forall ev, ZOK (send_global beh fuel tag ev w) (fun _ w' => ev_le w' w).
Proof.
  intros tag w HZ. destruct (gev_tri beh ZI_layer fuel tag w (proj2 (ZI_layer_J w) HZ)) as [Ha Hs].
  split; [exact (ZOK_weaken _ _ _ (fun k w' HZ' H => conj (proj1 H) (gby_known w' tag k (proj2 HZ') (proj2 H))) (tri_ZOK _ _ _ Ha))|intros ev; exact (ZOK_weaken _ _ _ (fun _ _ _ => @proj1 _ _) (tri_ZOK _ _ _ (Hs ev)))].
Qed.
Lemma send_global_ZOK tag ev w : ZI w -> ZOK (send_global beh RFUEL tag ev w) (fun _ w' => ev_le w' w).
Proof. intros H. exact (proj2 (gev_ZOK RFUEL tag w H) ev). Qed.
Lemma add_global_event_ZOK tag w : ZI w -> ZOK (add_global_event beh RFUEL tag w) (fun k w' => ev_le w' w /\ greg w' (fst k) /\ sm_get k (w_gev w') <> None /\ gtagged w' (fst k) tag).
Proof. intros H. exact (proj1 (gev_ZOK RFUEL tag w H)). Qed.
Lemma add_component_ZOK tag w : ZI w -> ZOK (add_component beh tag w) (fun _ w' => ev_le w' w).
Proof. intros HZ. exact (ZOK_weaken _ _ _ (fun _ _ _ => @proj1 _ _) (tri_ZOK _ _ _ (add_component_tri beh ZI_layer tag w (proj2 (ZI_layer_J w) HZ)))). Qed.
Lemma add_targeted_event_ZOK tag w : ZI w -> ZOK (add_targeted_event beh tag w) (fun k w' => ev_le w' w /\ treg w' (fst k) /\ sm_get k (w_tev w') <> None).
Proof. intros HZ. exact (ZOK_weaken _ _ _ (fun k w' HZ' H => conj (proj1 H) (tby_known w' tag k (proj2 HZ') (proj2 H))) (tri_ZOK _ _ _ (add_targeted_event_tri beh ZI_layer tag w (proj2 (ZI_layer_J w) HZ)))). Qed.
Lemma send_to_ZOK tag target ev w : ZI w -> ZOK (send_to beh tag target ev w) (fun _ w' => ev_le w' w).
Proof. intros HZ. exact (ZOK_weaken _ _ _ (fun _ _ _ => @proj1 _ _) (tri_ZOK _ _ _ (send_to_tri beh ZI_layer tag target ev w (proj2 (ZI_layer_J w) HZ)))). Qed.
Lemma op_spawn_ZOK w : ZI w -> ZOK (op_spawn beh w) (fun _ _ => True).
Proof. intros HZ. exact (keeps_ZOK _ (tri_keeps beh ZI_layer _ _ _ (op_spawn_tri beh ZI_layer w (proj2 (ZI_layer_J w) HZ)))). Qed.
Lemma op_insert_ZOK e ktag w : ZI w -> ZOK (op_insert beh e ktag w) (fun _ _ => True).
Proof. intros HZ. exact (keeps_ZOK _ (tri_keeps beh ZI_layer _ _ _ (op_insert_tri beh ZI_layer e ktag w (proj2 (ZI_layer_J w) HZ)))). Qed.
Lemma op_send_ZOK gtag w : ZI w -> ZOK (op_send beh gtag w) (fun _ _ => True).
Proof. intros HZ. exact (keeps_ZOK _ (tri_keeps beh ZI_layer _ _ _ (op_send_tri beh ZI_layer gtag w (proj2 (ZI_layer_J w) HZ)))). Qed.
Lemma op_send_to_ZOK e ttag w : ZI w -> ZOK (op_send_to beh e ttag w) (fun _ _ => True).
Proof. intros HZ. exact (keeps_ZOK _ (tri_keeps beh ZI_layer _ _ _ (op_send_to_tri beh ZI_layer e ttag w (proj2 (ZI_layer_J w) HZ)))). Qed.
Lemma resolve_query_ZOK q : forall w, ZI w -> ZOK (resolve_query beh q w) (fun _ w' => ev_le w' w).
Proof. intros w HZ. exact (ZOK_weaken _ _ _ (fun _ _ _ => @proj1 _ _) (tri_ZOK _ _ _ (resolve_query_tri beh ZI_layer q w (proj2 (ZI_layer_J w) HZ)))). Qed.
Definition reg_ok (w : world) (x : bool * N * N) : Prop := if fst (fst x) then treg w (snd x) else greg w (snd x) /\ gtagged w (snd x) (snd (fst x)).
Lemma register_set_ZOK evs : forall w, ZI w -> ZOK (register_set beh evs w) (fun r w' => ev_le w' w /\ forall x, In x r -> reg_ok w' x).
Proof.
  intros w HZ. refine (ZOK_weaken _ _ _ _ (tri_ZOK _ _ _ (register_set_tri beh ZI_layer evs w (proj2 (ZI_layer_J w) HZ)))). intros r w' [_ HY] [Hle HF]. split; [exact Hle|].
  intros x Hx. destruct (proj1 (Forall_forall _ _) HF x Hx) as (k & Ek & El). unfold reg_ok. rewrite <- Ek.
  destruct (fst (fst x)); [exact (proj1 (tby_known w' _ k HY El))|destruct (gby_known w' _ k HY El) as (G & _ & T); exact (conj G T)].
Qed.
Lemma init_param_ZOK p c w : ZI w -> CfInv3 c w -> CfR c w -> ZOK (init_param beh p c w) (fun c' w' => ev_le w' w /\ CfInv3 c' w' /\ CfR c' w').
Proof.
  intros HZ HC HR. destruct p as [tag m|tag m q|k q|evs]; cbn [init_param].
  - eapply rbind_ZOK; [apply add_global_event_ZOK; exact HZ|]. intros k w1 HZ1 [Hle [_ [Hk _]]]. apply ZOK_ok; [exact HZ1|]. split; [exact Hle|split].
    + intros g t Hin. cbn [cf_params cf_sg cf_st] in *. apply in_app_or in Hin as [Hin|[X|[]]]; [|discriminate]. exact (CfInv3_le c w w1 Hle HC g t Hin).
    + unfold CfR, cfg_set_recv. cbn [cf_recv]. destruct (cf_recv c) as [|old|]; [exact Hk| |exact I]. destruct (recvid_eqb old (RvGlobal k)); [exact Hk|exact I].
  - eapply rbind_ZOK; [apply add_targeted_event_ZOK; exact HZ|]. intros k w1 HZ1 [Hle1 [_ Hk]].
    eapply rbind_ZOK; [apply resolve_query_ZOK; exact HZ1|]. intros q' w2 HZ2 Hle2. apply ZOK_ok; [exact HZ2|].
    assert (Hle : ev_le w2 w) by exact (ev_le_trans _ _ _ Hle2 Hle1). split; [exact Hle|split].
    + intros g t Hin. cbn [cf_params cf_sg cf_st] in *. apply in_app_or in Hin as [Hin|[X|[]]]; [|discriminate]. exact (CfInv3_le c w w2 Hle HC g t Hin).
    + assert (Hk2 : sm_get k (w_tev w2) <> None) by exact (ev_le_kt _ _ Hle2 k Hk).
      unfold CfR, cfg_set_recv. cbn [cf_recv]. destruct (cf_recv c) as [|old|]; [exact Hk2| |exact I]. destruct (recvid_eqb old (RvTargeted k)); [exact Hk2|exact I].
  - eapply rbind_ZOK; [apply resolve_query_ZOK; exact HZ|]. intros q' w1 HZ1 Hle. apply ZOK_ok; [exact HZ1|]. split; [exact Hle|split; [|exact (CfR_le c w w1 Hle HR)]].
    intros g t Hin. cbn [cf_params cf_sg cf_st] in *. apply in_app_or in Hin as [Hin|[X|[]]]; [|discriminate]. exact (CfInv3_le c w w1 Hle HC g t Hin).
  - eapply rbind_ZOK; [apply register_set_ZOK; exact HZ|]. intros r w1 HZ1 [Hle Hr]. apply ZOK_ok; [exact HZ1|]. split; [exact Hle|split; [|exact (CfR_le c w w1 Hle HR)]].
    intros g t Hin. cbn [cf_params cf_sg cf_st] in *. apply in_app_or in Hin as [Hin|[X|[]]].
    + destruct (CfInv3_le c w w1 Hle HC g t Hin) as [A B]. split; intros tag i X; [destruct (A tag i X) as [A1 A2]|destruct (B tag i X) as [A1 A2]]; (split; [|exact A2]); apply smem_fold_sinsert; now left.
    + inversion X; subst g t. clear X. split; intros tag i X.
      * apply in_flat_map in X as ([[tt tg] idx] & Hx & Hi). cbn [fst snd] in Hi. destruct tt; [destruct Hi|]. destruct Hi as [Hi|[]]. inversion Hi; subst tg idx. split.
        -- apply smem_fold_sinsert. right. apply in_map_iff. exists (tag, i). split; [reflexivity|]. apply in_flat_map. exists (false, tag, i). split; [exact Hx|now left].
        -- exact (Hr _ Hx).
      * apply in_flat_map in X as ([[tt tg] idx] & Hx & Hi). cbn [fst snd] in Hi. destruct tt; [|destruct Hi]. destruct Hi as [Hi|[]]. inversion Hi; subst tg idx. split.
        -- apply smem_fold_sinsert. right. apply in_map_iff. exists (tag, i). split; [reflexivity|]. apply in_flat_map. exists (true, tag, i). split; [exact Hx|now left].
        -- exact (Hr _ Hx).
Qed.

Lemma init_params_ZOK ps : forall c w, ZI w -> CfInv3 c w -> CfR c w -> ZOK (init_params beh ps c w) (fun c' w' => ev_le w' w /\ CfInv3 c' w' /\ CfR c' w').
Proof.
  induction ps as [|p t IH]; intros c w HZ HC HR; cbn [init_params]; [apply ZOK_ok; [exact HZ|split; [apply ev_le_refl|split; assumption]]|].
  eapply rbind_ZOK; [apply init_param_ZOK; [exact HZ|exact HC|exact HR]|]. intros c1 w1 HZ1 (Hle1 & HC1 & HR1).
  eapply ZOK_weaken; [|apply IH; [exact HZ1|exact HC1|exact HR1]]. intros c2 w2 _ (Hle2 & HC2 & HR2). split; [exact (ev_le_trans _ _ _ Hle2 Hle1)|split; assumption].
Qed.
Theorem add_handler_ZOK sh w : ZI w -> ZOK (add_handler beh sh w) (fun _ _ => True).
Proof. intros HZ. exact (keeps_ZOK _ (tri_keeps beh ZI_layer _ _ _ (add_handler_tri beh ZI_layer sh w (proj2 (ZI_layer_J w) HZ)))). Qed.

Theorem remove_handler_ZOK k w : ZI w -> ZOK (remove_handler beh k w) (fun _ w' => sm_get k (w_hs w') = None).
Proof.
  intros HZ. destruct (keeps_ZOK _ (remove_handler_keeps beh ZI_layer k w (proj2 (ZI_layer_J w) HZ))) as (Z & Nn & _).
  split; [exact Z|split; [exact Nn|]]. destruct (remove_handler beh k w) as [b w'|] eqn:E; [|exact I].
  exact (remove_handler_gone k w b w' (proj1 HZ) E).
Qed.
Lemma remove_handlers_ZOK ks : forall w, ZI w -> ZOK (remove_handlers beh ks w) (fun _ w' => forall k, In k ks -> sm_get k (w_hs w') = None).
Proof.
  intros w HZ. destruct (keeps_ZOK _ (remove_handlers_keeps beh ZI_layer ks w (proj2 (ZI_layer_J w) HZ))) as (Z & Nn & _).
  split; [exact Z|split; [exact Nn|]]. destruct (remove_handlers beh ks w) as [[] w'|] eqn:E; [|exact I].
  exact (remove_handlers_gone ks w w' (proj1 HZ) E).
Qed.

Theorem remove_global_event_ZOK k w : ZI w -> ZOK (remove_global_event beh k w) (fun b w' => b = true ->
    sm_get k (w_gev w') = None /\ forall hk h, hlive w' hk h -> recvid_eqb (h_recv h) (RvGlobal k) || smem (fst k) (h_sent_g h) = false).
Proof.
  intros HZ. pose proof (proj2 (ZI_layer_J w) HZ) as HJ.
  destruct (keeps_ZOK _ (remove_global_event_keeps beh ZI_layer k w HJ)) as (Z & Nn & _). split; [exact Z|split; [exact Nn|]].
  destruct (remove_global_event beh k w) as [b w'|] eqn:E; [|exact I]. intros ->.
  destruct (remove_global_event_inv beh ZI_layer k w w' HJ E) as (w1 & w2 & info & m & _ & J1 & E2 & J2 & Er & ->).
  apply (proj1 (ZI_layer_J _)) in J1, J2. split; [exact (remove_get_gone _ _ _ _ (proj1 (DI_regs _ (proj1 (proj1 J2)))) Er)|].
  exact (users_gone (fun h => recvid_eqb (h_recv h) (RvGlobal k) || smem (fst k) (h_sent_g h)) w1 w2 (proj1 J1) E2).
Qed.
Theorem remove_targeted_event_ZOK k w : ZI w -> ZOK (remove_targeted_event beh k w) (fun b w' => b = true ->
    sm_get k (w_tev w') = None /\ forall hk h, hlive w' hk h -> recvid_eqb (h_recv h) (RvTargeted k) || smem (fst k) (h_sent_t h) = false).
Proof.
  intros HZ. pose proof (proj2 (ZI_layer_J w) HZ) as HJ.
  destruct (keeps_ZOK _ (remove_targeted_event_keeps beh ZI_layer k w HJ)) as (Z & Nn & _). split; [exact Z|split; [exact Nn|]].
  destruct (remove_targeted_event beh k w) as [b w'|] eqn:E; [|exact I]. intros ->.
  destruct (remove_targeted_event_inv beh ZI_layer k w w' HJ E) as (w1 & w2 & info & m & _ & J1 & E2 & J2 & Er & ->).
  apply (proj1 (ZI_layer_J _)) in J1, J2.
  assert (Ev : w_tev (tev_exit_world w2 k info m) = m /\ w_hs (tev_exit_world w2 k info m) = w_hs w2)
    by (unfold tev_exit_world; cbv zeta; destruct (e_kind info); split; reflexivity).
  split; [rewrite (proj1 Ev); exact (remove_get_gone _ _ _ _ (proj1 (proj2 (DI_regs _ (proj1 (proj1 J2))))) Er)|].
  intros hk h Hl. unfold hlive in Hl. rewrite (proj2 Ev) in Hl.
  exact (users_gone (fun h => recvid_eqb (h_recv h) (RvTargeted k) || smem (fst k) (h_sent_t h)) w1 w2 (proj1 J1) E2 hk h Hl).
Qed.

Lemma remove_tevents_ZOK ks : forall w, ZI w -> ZOK (remove_tevents beh ks w) (fun _ _ => True).
Proof. intros w HZ. exact (keeps_ZOK _ (remove_tevents_keeps beh ZI_layer ks w (proj2 (ZI_layer_J w) HZ))). Qed.

Theorem remove_component_ZOK k w : ZI w -> ZOK (remove_component beh k w) (fun _ _ => True).
Proof.
  intros HZ. destruct (remove_component_keeps beh ZI_layer k w ZI_comp_exit (proj2 (ZI_layer_J w) HZ)) as [HJ X].
  split; [exact (proj1 (ZI_layer_J _) HJ)|]. destruct (remove_component beh k w) as [a w'|f w']; (split; [|exact I]); [exact I|exact (proj2 (nub_fail f w') (proj2 X))].
Qed.
End ZOps.

Lemma ZI_ev_drop w t tag ev : ZI w -> ZI (ev_drop w t tag ev).
Proof. intros HZ. exact (proj1 (ZI_layer_J script_beh _) (place_J script_beh (ZI_layer script_beh) _ _ _ (p_quiet _ _ (quiet_ev_drop w t tag ev)) (proj2 (ZI_layer_J script_beh w) HZ))). Qed.

Definition run_top_res (beh : hinfo -> logent -> N -> script) (w : world) (o : top_all) : world * option fail :=
  let f {A} (r : res A) := match r with ROk _ w' => (w', None) | RFail e w' => (w', Some e) end in
  match o with
  | TA TSpawn => f (op_spawn beh w)
  | TA (TInsert e k) => f (op_insert beh e k w)
  | TA (TRemove e k) => f (op_remove beh e k w)
  | TA (TDespawn e) => f (op_despawn beh e w)
  | TA (TSend g) => f (op_send beh g w)
  | TA (TSendTo e t) => f (op_send_to beh e t w)
  | TA (TAddHandler sh) => f (add_handler beh sh w)
  | TA (TRemoveHandler k) => f (remove_handler beh k w)
  | TA (TAddComponent t) => f (add_component beh t w)
  | TA (TAddGlobal t) => f (add_global_event beh RFUEL t w)
  | TA (TAddTargeted t) => f (add_targeted_event beh t w)
  | TA (TRemoveGlobal k) => f (remove_global_event beh k w)
  | TA (TRemoveTargeted k) => f (remove_targeted_event beh k w)
  | TRemoveComponent k => f (remove_component beh k w)
  end.

Lemma run_top_res_world beh w o : fst (run_top_res beh w o) = run_top_all beh w o.
Proof. destruct o as [o|k]; [destruct o|]; cbn [run_top_res run_top_all run_top]; match goal with |- context [match ?r with _ => _ end] => destruct r end; reflexivity. Qed.

Lemma keeps_res beh {A} (r : res A) : keeps beh (ZI_layer beh) r ->
  ZI (fst (match r with ROk _ w' => (w', None) | RFail e w' => (w', Some e) end)) /\ ~ ubf (snd (match r with ROk _ w' => (w', None) | RFail e w' => (w', Some e) end)).
Proof. intros [HJ X]. apply -> (ZI_layer_J beh) in HJ. destruct r as [a w'|f w']; (split; [exact HJ|]); [exact (fun H => H)|exact (proj2 X)]. Qed.
Lemma ZOK_res {A} (r : res A) post : ZOK r post -> ZI (fst (match r with ROk _ w' => (w', None) | RFail e w' => (w', Some e) end)) /\ ~ ubf (snd (match r with ROk _ w' => (w', None) | RFail e w' => (w', Some e) end)).
Proof. intros (Z & Nn & _). destruct r as [a w'|f w']; (split; [exact Z|]); [exact (fun H => H)|exact (proj1 (nub_fail f w') Nn)]. Qed.

Theorem run_top_res_ZI beh w o : ZI w -> ZI (fst (run_top_res beh w o)) /\ ~ ubf (snd (run_top_res beh w o)).
Proof.
  intros HZ. apply (ZI_layer_J beh) in HZ. set (L := ZI_layer beh) in *. destruct o as [o|k]; [destruct o|]; cbn [run_top_res]; apply (keeps_res beh).
  - exact (tri_keeps beh L _ _ _ (op_spawn_tri beh L w HZ)).
  - exact (tri_keeps beh L _ _ _ (op_insert_tri beh L e ktag w HZ)).
  - exact (tri_keeps beh L _ _ _ (send_to_tri beh L (T_REMOVE ktag) e (mkEv 0 0 KEY_NULL) w HZ)).
  - exact (tri_keeps beh L _ _ _ (send_to_tri beh L T_DESPAWN e (mkEv 0 0 KEY_NULL) w HZ)).
  - exact (tri_keeps beh L _ _ _ (op_send_tri beh L gtag w HZ)).
  - exact (tri_keeps beh L _ _ _ (op_send_to_tri beh L e ttag w HZ)).
  - exact (tri_keeps beh L _ _ _ (add_handler_tri beh L sh w HZ)).
  - exact (remove_handler_keeps beh L k w HZ).
  - exact (tri_keeps beh L _ _ _ (add_component_tri beh L tag w HZ)).
  - exact (tri_keeps beh L _ _ _ (add_global_event_tri beh L tag w HZ)).
  - exact (tri_keeps beh L _ _ _ (add_targeted_event_tri beh L tag w HZ)).
  - exact (remove_global_event_keeps beh L k w HZ).
  - exact (remove_targeted_event_keeps beh L k w HZ).
  - exact (remove_component_keeps beh L k w (ZI_comp_exit beh) HZ).
Qed.

Lemma ZI_world0 fuel p : ZI (world0 fuel p).
Proof.
  split; [split; [apply DI_world0|apply SInv_world0]|]. split; [|split; [|split]].
  4:{ intros hk h H. unfold hlive, world0 in H. cbn [w_hs] in H. discriminate. }
  - split; intros tag k H; unfold world0 in H; cbn in H; discriminate.
  - intros i H. exfalso. apply H. unfold world0, get_by_index. cbn. now destruct i.
  - intros hk h H. unfold hlive, world0 in H. cbn [w_hs] in H. discriminate.
Qed.

Theorem reachable_ZI beh fuel p ops : ZI (fold_left (run_top_all beh) ops (world0 fuel p)).
Proof.
  exact (proj1 (ZI_layer_J beh _) (history_keeps beh (ZI_layer beh) ops _ (ZI_comp_exit beh) (proj2 (ZI_layer_J beh _) (ZI_world0 fuel p)))).
Qed.

(* C01: whatever calls were made before, with whatever handlers, the next call does not reach an
   unchecked failure: it returns normally or with one of the documented panics *)
Theorem no_call_fails_unchecked beh fuel p ops o :
  ~ ubf (snd (run_top_res beh (fold_left (run_top_all beh) ops (world0 fuel p)) o)).
Proof. exact (proj2 (run_top_res_ZI beh _ o (reachable_ZI beh fuel p ops))). Qed.

(* World::get: the location map and the row width are trusted by unchecked indexing *)
Lemma col_index_lt comps : forall c i, col_index comps c = Some i -> i < nlen comps.
Proof.
  induction comps as [|h t IH]; intros c i H; cbn [col_index] in H; [discriminate|]. rewrite nlen_cons.
  destruct (c =? h); [inversion H; lia|]. destruct (col_index t c) as [j|] eqn:E; [|discriminate]. cbn in H. inversion H; subst. specialize (IH c j E). lia.
Qed.
Lemma op_get_abs e ktag w : StoreInv w ->
  op_get e ktag w = inr (match alookup ktag (w_cby w) with Some ck => abs w e (fst ck) | None => None end).
Proof.
  intros (_ & Hl & Hw). unfold op_get, abs. destruct (sm_get e (w_ents w)) as [[ai row]|] eqn:He; [|now destruct (alookup ktag (w_cby w))].
  destruct (alookup ktag (w_cby w)) as [ck|]; [|reflexivity]. destruct (Hl _ _ _ He) as (a & vals & Ha & Hrow).
  unfold arch_at in *. cbn [fst snd]. rewrite Ha, Hrow. unfold row_col. destruct (col_index (a_comps a) (fst ck)) as [ci|] eqn:Ec; [|reflexivity].
  destruct (Hw ai a row e vals Ha Hrow) as [_ Hlen]. apply col_index_lt in Ec.
  destruct (nget_lt_some vals ci) as [v Hv]; [unfold nlen in *; rewrite Hlen; exact Ec|]. now rewrite Hv.
Qed.
Theorem op_get_ok e ktag w : StoreInv w -> ~ is_ub (op_get e ktag w).
Proof. intros H. rewrite (op_get_abs e ktag w H). exact (fun X => X). Qed.
Theorem reachable_get_ok beh fuel p ops e ktag : ~ is_ub (op_get e ktag (fold_left (run_top_all beh) ops (world0 fuel p))).
Proof. apply op_get_ok, ZI_store, reachable_ZI. Qed.

Global Opaque ZI_layer.
