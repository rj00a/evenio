(* Member.v : the component-registry side of the invariant (C14, C17):
     K1  member_of of every live component lists, without repetition, exactly the live archetypes
         that have the component;
     K2  archetypes only mention live components;
     K3  every targeted Insert/Remove event is about a live component and is recorded in that
         component's insert/remove event lists;
     K5  the by-type map names live components of that type;
   as a layer over the storage invariant (Layer.v), so that every call keeps it and World::remove_component
   (whose archetype removal trusts member_of) can join the calls of the reachability theorem. *)
From Coq Require Import List NArith Bool Lia Sorted Permutation.
Import ListNotations.
Require Import EV.Base EV.ListN EV.Access EV.Query EV.QueryInd EV.SlotMap EV.Reserve EV.HList EV.Loop EV.World EV.StorageSpec EV.SlotMapGet
  EV.ArchProofs EV.WorldFrame EV.Layer EV.Store EV.Register EV.Graph EV.Effects EV.Reach EV.Steps EV.RemoveComp.
Open Scope N_scope.

Definition comp_live (w : world) (c : N) : Prop := get_by_index (w_comps w) c <> None.

Definition KInv (w : world) : Prop :=
  SmInv (w_comps w) /\ SmInv (w_tev w) /\
  (forall c k ci, get_by_index (w_comps w) c = Some (k, ci) ->
     NoDup (c_member_of ci) /\
     forall ai, In ai (c_member_of ci) <-> exists a, arch_at w ai = Some a /\ In c (a_comps a)) /\
  (forall ai a c, arch_at w ai = Some a -> In c (a_comps a) -> comp_live w c) /\
  (forall i k info c, get_by_index (w_tev w) i = Some (k, info) -> (e_kind info = KInsert c \/ e_kind info = KRemove c) ->
     exists kc ci, get_by_index (w_comps w) c = Some (kc, ci) /\ In k (c_ins ci ++ c_rem ci)) /\
  (forall tag k, alookup tag (w_cby w) = Some k -> exists ci, sm_get k (w_comps w) = Some ci /\ c_tag ci = tag).

(* what K1 and K2 look at in the archetypes; K1 reads [In ai (c_member_of ci) <-> member w c ai] by conversion *)
Definition member (w : world) (c ai : N) : Prop := exists a, arch_at w ai = Some a /\ In c (a_comps a).

Lemma member_rc_step cidx ctag w ai c aj : member (rc_step cidx ctag w ai) c aj <-> member w c aj /\ aj <> ai.
Proof.
  unfold member. rewrite rc_step_arch_at. destruct (N.eqb_spec aj ai) as [->|Hne]; [split; [intros (a & [=] & _)|intros [_ []]; reflexivity]|tauto].
Qed.
Lemma member_vacant w c : SlabInv (w_archs w) -> ~ member w c (slab_vacant_key (w_archs w)).
Proof. intros Hs (a & Ha & _). destruct (slab_insert_spec (w_archs w) a Hs) as (_ & Hvac & _). unfold arch_at in Ha. congruence. Qed.
Lemma member_create_arch w cs ins rem c aj : SlabInv (w_archs w) ->
  member (snd (create_arch w cs ins rem)) c aj <-> member w c aj \/ aj = slab_vacant_key (w_archs w) /\ In c cs.
Proof.
  intros Hs. destruct (create_arch_at w cs ins rem Hs) as [Hvac Hat]. unfold member. rewrite Hat.
  destruct (N.eqb_spec aj (slab_vacant_key (w_archs w))) as [->|Hne]; [|tauto]. rewrite Hvac, regs_a_tables.
  split; [intros (a & [= <-] & Hin); auto|intros [(a & [=] & _)|[_ Hin]]; eauto].
Qed.

(* a view [g] of the archetypes, slot by slot, that row and capacity updates do not change;
   [cshape] below and Listen's [gshape] are [aview] at their [g], by conversion *)
Section ArchView.
Context {T : Type} (g : arch -> T).
Hypothesis g_rows : forall a r, g (set_rows a r) = g a.
Hypothesis g_cap : forall a c e, g (set_cap a c e) = g a.

Definition aview_entry (e : sentry) : option T := match e with SOcc a => Some (g a) | SVac _ => None end.
Definition aview (s : slab) : list (option T) := map aview_entry (sl_entries s).

Lemma aview_arch_at w w' : aview (w_archs w') = aview (w_archs w) ->
  forall ai, option_map g (arch_at w' ai) = option_map g (arch_at w ai).
Proof.
  intros H ai. unfold arch_at, slab_get.
  assert (E : option_map aview_entry (nget (sl_entries (w_archs w')) ai) = option_map aview_entry (nget (sl_entries (w_archs w)) ai)).
  { rewrite <- !nget_map. unfold aview in H. now rewrite H. }
  destruct (nget (sl_entries (w_archs w')) ai) as [[a'|n']|], (nget (sl_entries (w_archs w)) ai) as [[a|n]|]; cbn in *; congruence.
Qed.

Lemma aview_set s i a0 a : slab_get s i = Some a0 -> g a = g a0 -> aview (slab_set s i a) = aview s.
Proof.
  unfold slab_get, slab_set, aview. cbn [sl_entries]. intros Hg Hc. destruct (nget (sl_entries s) i) as [[a1|]|] eqn:E; try discriminate. inversion Hg; subst a1.
  revert i E. induction (sl_entries s) as [|h t IH]; intros i E; [discriminate|]. cbn [nget] in E. cbn [nset]. destruct (i =? 0).
  - inversion E; subst h. cbn [map aview_entry]. now rewrite Hc.
  - cbn [map]. f_equal. eapply IH; eauto.
Qed.

Lemma aview_upd_arch w ai f : (forall a, g (f a) = g a) -> aview (w_archs (upd_arch w ai f)) = aview (w_archs w).
Proof. intros H. unfold upd_arch. destruct (slab_get (w_archs w) ai) as [a|] eqn:E; [|reflexivity]. cbn [w_archs set_archs]. eapply aview_set; eauto. Qed.

Lemma aview_move_entity w src dst nw : aview (w_archs (res_world (move_entity w src dst nw))) = aview (w_archs w).
Proof.
  assert (M : forall sai srow sa da r, sai <> dst -> slab_get (w_archs w) sai = Some sa -> slab_get (w_archs w) dst = Some da ->
    aview (slab_set (slab_set (w_archs w) sai (taken sa srow)) dst (pushed da r)) = aview (w_archs w)).
  { intros sai srow sa da r Hne Hsa Hda. erewrite aview_set; [eapply aview_set; [exact Hsa|apply g_rows]| |now apply pushed_view].
    rewrite slab_get_set_neq by exact Hne. exact Hda. }
  destruct src as [sai srow]. destruct (move_entity_spec w sai srow dst nw); cbn [res_world]; try reflexivity; try (now apply M).
  - eapply aview_set; [eassumption|apply g_rows].
  - rewrite moved_eq. now apply M.
Qed.

Lemma aview_remove_entity w loc : aview (w_archs (res_world (remove_entity w loc))) = aview (w_archs w).
Proof.
  destruct loc as [ai row]. destruct (remove_entity_spec w ai row); cbn [res_world]; try reflexivity; try rewrite removed_eq;
    (eapply aview_set; [eassumption|apply g_rows]).
Qed.

Lemma aview_arch_spawn w e : aview (w_archs (snd (arch_spawn w e))) = aview (w_archs w).
Proof.
  rewrite arch_spawn_eq. cbn [snd]. destruct (slab_get (w_archs w) 0) as [a0|] eqn:Ha; [|reflexivity].
  rewrite row_spawned_eq. eapply aview_set; [exact Ha|now apply pushed_view].
Qed.
Lemma aview_spawn_all w : aview (w_archs (res_world (spawn_all w))) = aview (w_archs w).
Proof. apply (spawn_all_keeps (fun w' => aview (w_archs w') = aview (w_archs w))); [|auto|reflexivity]. intros w0 k ents' _ <-. apply aview_arch_spawn. Qed.

(* [g] cannot see the rows, and [ashapeL] shows everything else *)
Lemma aview_structureL w w' : structureL w' = structureL w -> aview (w_archs w') = aview (w_archs w).
Proof.
  unfold structureL. intros H. injection H as _ _ _ _ _ _ _ _ Hsh _ _.
  set (f := fun x : (N * N * N * list N * list (key * nat) * list (N * N) * list (N * N) * list key * list (N * hlist key)) + N =>
              match x with inl (u, c, e, cs, _, i, r, rf, ls) => Some (g (mkA u cs [] c e i r rf ls)) | inr _ => None end).
  assert (E : forall l, map aview_entry l = map f (map ashapeL l)) by (intros l; rewrite map_map; apply map_ext; intros [a|n]; [exact (f_equal Some (eq_sym (g_rows a [])))|reflexivity]).
  unfold aview. now rewrite !E, Hsh.
Qed.

Lemma aview_sstep : (forall a i r, g (set_edges a i r) = g a) -> forall w w', sstep w w' -> aview (w_archs w') = aview (w_archs w).
Proof.
  intros He w w' [w0 w1 [A _]|w0 ai i r|w0 src dst nw w1 E|w0 loc w1 E|w0]; [now apply aview_structureL|apply aview_upd_arch; intros; apply He| | |apply aview_spawn_all].
  - change w1 with (res_world (ROk tt w1)). rewrite <- E. apply aview_move_entity.
  - change w1 with (res_world (ROk tt w1)). rewrite <- E. apply aview_remove_entity.
Qed.
End ArchView.

(* the archetypes' component lists, slot by slot *)
Definition cshape_entry (e : sentry) : option (list N) := match e with SOcc a => Some (a_comps a) | SVac _ => None end.
Definition cshape (s : slab) : list (option (list N)) := map cshape_entry (sl_entries s).

Lemma cshape_arch_at w w' : cshape (w_archs w') = cshape (w_archs w) ->
  forall ai, option_map a_comps (arch_at w' ai) = option_map a_comps (arch_at w ai).
Proof. exact (aview_arch_at a_comps w w'). Qed.
Lemma cshape_set s i a0 a : slab_get s i = Some a0 -> a_comps a = a_comps a0 -> cshape (slab_set s i a) = cshape s.
Proof. exact (aview_set a_comps s i a0 a). Qed.
Lemma cshape_upd_arch w ai f : (forall a, a_comps (f a) = a_comps a) -> cshape (w_archs (upd_arch w ai f)) = cshape (w_archs w).
Proof. exact (aview_upd_arch a_comps w ai f). Qed.
Lemma reserve_one_comps a : a_comps (fst (reserve_one a)) = a_comps a.
Proof. unfold reserve_one. now destruct (nlen (a_rows a) =? a_cap a). Qed.
Lemma cshape_move_entity w src dst nw : cshape (w_archs (res_world (move_entity w src dst nw))) = cshape (w_archs w).
Proof. apply (aview_move_entity a_comps); reflexivity. Qed.
Lemma cshape_remove_entity w loc : cshape (w_archs (res_world (remove_entity w loc))) = cshape (w_archs w).
Proof. apply (aview_remove_entity a_comps); reflexivity. Qed.
Lemma cshape_arch_spawn w e : cshape (w_archs (snd (arch_spawn w e))) = cshape (w_archs w).
Proof. apply (aview_arch_spawn a_comps); reflexivity. Qed.
Lemma cshape_spawn_all_n n : forall w, cshape (w_archs (res_world (spawn_all_n n w))) = cshape (w_archs w).
Proof.
  intros w. apply (spawn_all_n_keeps (fun w' => cshape (w_archs w') = cshape (w_archs w))); [|reflexivity].
  intros w0 k ents' _ <-. apply cshape_arch_spawn.
Qed.
Lemma cshape_spawn_all w : cshape (w_archs (res_world (spawn_all w))) = cshape (w_archs w).
Proof. apply (aview_spawn_all a_comps); reflexivity. Qed.

Lemma member_cshape w w' : cshape (w_archs w') = cshape (w_archs w) -> forall c ai, member w' c ai <-> member w c ai.
Proof.
  intros Hs c ai. pose proof (aview_arch_at a_comps w w' Hs ai) as Ha. unfold member.
  destruct (arch_at w' ai) as [a'|], (arch_at w ai) as [a|]; try discriminate; [|split; intros (x & [=] & _)].
  injection Ha as Ha. split; intros (x & [= <-] & Hin); eexists; (split; [reflexivity|congruence]).
Qed.

Lemma KInv_ext w w' : w_comps w' = w_comps w -> w_cby w' = w_cby w -> w_tev w' = w_tev w -> cshape (w_archs w') = cshape (w_archs w) -> KInv w -> KInv w'.
Proof.
  intros Hc Hcb Ht Hs (S1 & S2 & K1 & K2 & K3 & K5). pose proof (member_cshape w w' Hs) as Hm.
  unfold KInv, comp_live. rewrite Hc, Ht, Hcb. split; [exact S1|]. split; [exact S2|]. split; [|split; [|split; [exact K3|exact K5]]].
  - intros c k ci Hg. destruct (K1 c k ci Hg) as [Hnd Hk]. split; [exact Hnd|]. intros ai. rewrite Hk. symmetry. apply Hm.
  - intros ai a' c Ha' Hin. destruct (proj1 (Hm c ai) (ex_intro _ a' (conj Ha' Hin))) as (a & Ha & Hin'). exact (K2 ai a c Ha Hin').
Qed.

Lemma structure_cshape w w' : structure w' = structure w -> cshape (w_archs w') = cshape (w_archs w) /\ w_comps w' = w_comps w /\ w_cby w' = w_cby w.
Proof.
  unfold structure. intros H. injection H as Hcb He Hc Hsh Hn Hb. split; [|split; [exact Hc|exact Hcb]].
  revert Hsh. apply map_eq_factor. intros [a|n] [a'|n'] E; cbn [ashape cshape_entry] in *; congruence.
Qed.
Lemma KInv_structure w w' : structure w' = structure w -> w_tev w' = w_tev w -> KInv w -> KInv w'.
Proof. intros Hs Ht. destruct (structure_cshape w w' Hs) as (A & B & C). now apply KInv_ext. Qed.

Lemma slab_get_set_same s i a0 a : slab_get s i = Some a0 -> slab_get (slab_set s i a) i = Some a.
Proof. apply slab_get_set_eq. Qed.

Section FoldUpd.
Variables (skip : N -> bool) (f : cinfo -> cinfo).
Definition fold_upd (cs : list N) (m : smap cinfo) : smap cinfo :=
  fold_left (fun m c => if skip c then m else upd_by_index m c f) cs m.

Lemma fold_upd_inv cs : forall m, SmInv m -> SmInv (fold_upd cs m).
Proof. induction cs as [|c cs IH]; intros m Hi; cbn [fold_upd fold_left]; [exact Hi|]. apply IH. destruct (skip c); [exact Hi|now apply upd_index_inv]. Qed.

Lemma fold_upd_gbi cs : NoDup cs -> forall m i,
  get_by_index (fold_upd cs m) i =
    if existsb (N.eqb i) cs && negb (skip i) then match get_by_index m i with Some (k, v) => Some (k, f v) | None => None end
    else get_by_index m i.
Proof.
  induction cs as [|c cs IH]; intros Hnd m i; cbn [fold_upd fold_left existsb]; [reflexivity|].
  inversion Hnd as [|? ? Hni Hnd']; subst. fold (fold_upd cs (if skip c then m else upd_by_index m c f)). rewrite (IH Hnd').
  destruct (i =? c) eqn:E.
  - apply N.eqb_eq in E. subst i. cbn [orb].
    assert (Hex : existsb (N.eqb c) cs = false).
    { apply not_true_is_false. intros X. apply existsb_exists in X as (x & Hx & Ex). apply N.eqb_eq in Ex. subst. contradiction. }
    rewrite Hex. cbn [andb]. destruct (skip c); cbn [negb]; [reflexivity|]. now rewrite gbi_upd, N.eqb_refl.
  - cbn [orb]. destruct (skip c); [reflexivity|]. rewrite gbi_upd, E. reflexivity.
Qed.
End FoldUpd.

Lemma existsb_In i l : existsb (N.eqb i) l = true <-> In i l.
Proof. exact (smem_in i l). Qed.

Section CompsUpd.
Variables (m m' : smap cinfo) (b : N -> bool) (f : cinfo -> cinfo).
Hypothesis Hg : forall i, get_by_index m' i =
  if b i then match get_by_index m i with Some (k, v) => Some (k, f v) | None => None end else get_by_index m i.

Lemma upd_live i : get_by_index m i <> None -> get_by_index m' i <> None.
Proof. rewrite Hg. destruct (b i); [|auto]. destruct (get_by_index m i) as [[k v]|]; congruence. Qed.
Lemma upd_entry i k ci : get_by_index m i = Some (k, ci) -> exists ci', get_by_index m' i = Some (k, ci') /\ (ci' = ci \/ ci' = f ci).
Proof. intros H. rewrite Hg, H. destruct (b i); eauto. Qed.
Lemma upd_key tag k : (forall ci, c_tag (f ci) = c_tag ci) ->
  (exists ci, sm_get k m = Some ci /\ c_tag ci = tag) -> exists ci, sm_get k m' = Some ci /\ c_tag ci = tag.
Proof.
  intros Htag (ci & Hk & Ht). destruct (upd_entry _ _ _ (gbi_of_get _ _ _ Hk)) as (ci' & Hg' & E). exists ci'.
  split; [exact (proj2 (get_of_gbi _ _ _ _ Hg'))|]. destruct E as [->| ->]; [exact Ht|now rewrite Htag].
Qed.
End CompsUpd.

Lemma sorted_NoDup l : StronglySorted N.lt l -> NoDup l.
Proof.
  induction 1 as [|x l Hs IH Hall]; constructor; [|exact IH]. intros Hin. rewrite Forall_forall in Hall. specialize (Hall x Hin). lia.
Qed.

Lemma create_arch_fields w cs ins rem :
  w_comps (snd (create_arch w cs ins rem)) =
    fold_upd (fun _ => false) (fun ci => mkC (c_tag ci) (c_member_of ci ++ [slab_vacant_key (w_archs w)]) (c_ins ci) (c_rem ci)) cs (w_comps w) /\
  w_cby (snd (create_arch w cs ins rem)) = w_cby w /\ w_tev (snd (create_arch w cs ins rem)) = w_tev w.
Proof. rewrite create_arch_eq. repeat split. Qed.

Lemma create_arch_K w cs ins rem :
  KInv w -> SlabInv (w_archs w) -> NoDup cs -> (forall c, In c cs -> comp_live w c) ->
  KInv (snd (create_arch w cs ins rem)).
Proof.
  intros (S1 & S2 & K1 & K2 & K3 & K5) Hs Hnd Hlive. pose proof (fun c aj => member_create_arch w cs ins rem c aj Hs) as Hmem.
  pose proof (fun c => member_vacant w c Hs) as Hvk.
  destruct (create_arch_fields w cs ins rem) as (Ec & Hcby & Htev). set (w1 := snd (create_arch w cs ins rem)) in *.
  set (vk := slab_vacant_key (w_archs w)) in *. set (fm := fun ci => mkC _ (c_member_of ci ++ [vk]) _ _) in Ec.
  assert (Hg : forall i, get_by_index (w_comps w1) i =
     if existsb (N.eqb i) cs then match get_by_index (w_comps w) i with Some (k, v) => Some (k, fm v) | None => None end else get_by_index (w_comps w) i).
  { intros i. rewrite Ec, (fold_upd_gbi (fun _ => false) fm cs Hnd). cbn [negb]. now rewrite andb_true_r. }
  split; [rewrite Ec; now apply fold_upd_inv|]. split; [now rewrite Htev|]. split; [|split; [|split]].
  - intros c k ci' Hgc. rewrite Hg in Hgc. destruct (existsb (N.eqb c) cs) eqn:Ecs.
    + destruct (get_by_index (w_comps w) c) as [[k0 ci]|] eqn:E0; [|discriminate]. injection Hgc as -> <-. destruct (K1 c k ci E0) as [Hnd0 Hm].
      cbn [c_member_of fm]. split; [apply NoDup_app_snoc; [exact Hnd0|rewrite Hm; apply Hvk]|].
      intros ai. rewrite in_app_iff, Hm, (Hmem c ai). cbn [In]. apply existsb_In in Ecs. intuition.
    + destruct (K1 c k ci' Hgc) as [Hnd0 Hm]. split; [exact Hnd0|]. intros ai. rewrite Hm, (Hmem c ai).
      split; [auto|]. intros [H|[_ H]]; [exact H|]. apply existsb_In in H. congruence.
  - intros ai a c Ha Hin. apply (upd_live _ _ _ _ Hg).
    destruct (proj1 (Hmem c ai) (ex_intro _ a (conj Ha Hin))) as [(a0 & Ha0 & Hin0)|[_ Hc]]; [exact (K2 ai a0 c Ha0 Hin0)|exact (Hlive c Hc)].
  - intros i k info c Hgi Hk. rewrite Htev in Hgi. destruct (K3 i k info c Hgi Hk) as (kc & ci & Hgc & Hin).
    destruct (upd_entry _ _ _ _ Hg _ _ _ Hgc) as (ci' & Hg' & [->| ->]); exists kc; eexists; (split; [exact Hg'|exact Hin]).
  - intros tag k Hl. rewrite Hcby in Hl. exact (upd_key _ _ _ _ Hg tag k (fun _ => eq_refl) (K5 tag k Hl)).
Qed.

Definition kreg (w : world) := (w_comps w, w_cby w, w_tev w).
Lemma KInv_kreg w w' : kreg w' = kreg w -> cshape (w_archs w') = cshape (w_archs w) -> KInv w -> KInv w'.
Proof. unfold kreg. intros H. injection H as A B C. now apply KInv_ext. Qed.

Lemma kreg_move_entity w src dst nw : kreg (res_world (move_entity w src dst nw)) = kreg w.
Proof. apply (r_move_entity kreg); fr. Qed.
Lemma kreg_remove_entity w loc : kreg (res_world (remove_entity w loc)) = kreg w.
Proof. apply (r_remove_entity kreg); fr. Qed.
Lemma kreg_spawn_all w : kreg (res_world (spawn_all w)) = kreg w.
Proof. apply (r_spawn_all kreg); fr. Qed.
Lemma kreg_upd_arch w ai f : kreg (upd_arch w ai f) = kreg w.
Proof. apply (r_upd_arch kreg); fr. Qed.

Lemma KInv_upd_edges w ai f : (forall a, a_comps (f a) = a_comps a) -> KInv w -> KInv (upd_arch w ai f).
Proof. intros H. apply KInv_kreg; [apply kreg_upd_arch|now apply cshape_upd_arch]. Qed.

Lemma filter_sorted (p : N -> bool) l : StronglySorted N.lt l -> StronglySorted N.lt (filter p l).
Proof.
  induction 1 as [|x l Hs IH Hall]; cbn [filter]; [constructor|]. destruct (p x); [|exact IH]. constructor; [exact IH|].
  rewrite Forall_forall in *. intros y Hy. apply filter_In in Hy as [Hy _]. now apply Hall.
Qed.

Lemma rbind_K {A B} (r : res A) (f : A -> world -> res B) (P : world -> Prop) :
  P (res_world r) -> (forall a w, P w -> P (res_world (f a w))) -> P (res_world (rbind r f)).
Proof. intros H1 H2. destruct r as [a w|e w]; cbn [rbind res_world] in *; auto. Qed.

Definition kind_comp_live (w : world) (k : ekind) : Prop :=
  match k with KInsert c | KRemove c => comp_live w c | _ => True end.

Lemma kind_live_of_K3 w i k info : KInv w -> get_by_index (w_tev w) i = Some (k, info) -> kind_comp_live w (e_kind info).
Proof.
  intros (_ & _ & _ & _ & K3 & _) Hg. unfold kind_comp_live, comp_live. destruct (e_kind info) as [|c|c| |] eqn:E; auto.
  - destruct (K3 i k info c Hg (or_introl E)) as (kc & ci & X & _). congruence.
  - destruct (K3 i k info c Hg (or_intror E)) as (kc & ci & X & _). congruence.
Qed.

Lemma traverse_insert_K w src c :
  KInv w -> GraphInv w -> comp_live w c -> KInv (res_world (traverse_insert w src c)).
Proof.
  intros HK (Hs & _ & _ & _ & _ & Hso) Hc. apply (traverse_insert_keeps KInv); [intros; now apply KInv_upd_edges| |exact HK]. intros sa Ha Hh.
  apply create_arch_K; [exact HK|exact Hs|apply sorted_NoDup, sorted_insert_sorted; [exact (Hso _ _ Ha)|intros X; apply arch_has_in in X; congruence]|].
  intros x Hx. apply sorted_insert_in in Hx as [->|Hx]; [exact Hc|exact (proj1 (proj2 (proj2 (proj2 HK))) src sa x Ha Hx)].
Qed.
Lemma traverse_remove_K w src c :
  KInv w -> GraphInv w -> KInv (res_world (traverse_remove w src c)).
Proof.
  intros HK (Hs & _ & _ & _ & _ & Hso). apply (traverse_remove_keeps KInv); [intros; now apply KInv_upd_edges| |exact HK]. intros sa Ha _.
  apply create_arch_K; [exact HK|exact Hs|apply sorted_NoDup, Graph.filter_sorted; exact (Hso _ _ Ha)|].
  intros x Hx. apply filter_In in Hx as [Hx _]. exact (proj1 (proj2 (proj2 (proj2 HK))) src sa x Ha Hx).
Qed.
Lemma builtin_effect_K kind ev loc w :
  KInv w -> GraphInv w -> kind_comp_live w kind -> KInv (res_world (builtin_effect kind ev loc w)).
Proof.
  intros HK HG Hl. apply (builtin_effect_keeps KInv); [intros c ->; now apply traverse_insert_K|intros c ->; now apply traverse_remove_K| | | | |exact HK].
  - intros w1 d nw. apply KInv_kreg; [apply kreg_move_entity|apply cshape_move_entity].
  - intros w1. apply KInv_kreg; [apply kreg_spawn_all|apply cshape_spawn_all].
  - intros w1. apply KInv_kreg; [apply kreg_remove_entity|apply cshape_remove_entity].
  - intros w1 a b. apply KInv_kreg; reflexivity.
Qed.

(* a new archetype only mentions live components: those of its neighbour (K2) and that of a registered Insert event (K3) *)
Lemma K_stable : stable GevKinds KInv.
Proof.
  intros w w' [w0 w1 S|w0 cs i r Hs Hso Hk] HG HK.
  - apply (KInv_kreg w0); [|now apply (aview_sstep a_comps)|exact HK]. apply (sstep_frame kreg); try exact S; try fr.
    intros x x' Hq. destruct (structure_cshape _ _ (structure_of_L _ _ (proj1 Hq))) as (_ & A & B). unfold kreg. now rewrite A, B, (proj2 (proj2 (proj2 (proj2 (quiet_fields _ _ Hq))))).
  - apply create_arch_K; [exact HK|exact Hs|now apply sorted_NoDup|]. intros c Hc. destruct (Hk c Hc) as [(ai & a & Ha & Hin)|(i0 & k & info & [Hg|Hg] & Ek)].
    + destruct HK as (_ & _ & _ & K2 & _). eapply K2; eauto.
    + pose proof (kind_live_of_K3 _ _ _ _ HK Hg) as X. now rewrite Ek in X.
    + pose proof (HG _ _ _ Hg) as X. now rewrite Ek in X.
Qed.
Definition RK_stable : stable (fun _ => True) (fun w => GevKinds w /\ KInv w) :=
  stable_and _ _ GevKinds_stable K_stable.

Definition FInv (w : world) : Prop := RInv w /\ KInv w.

Lemma FInv_parts w : FInv w -> WInv w /\ GevKinds w /\ KInv w.
Proof. intros [[A B] C]. auto. Qed.

Lemma FInv_kept : kept FInv.
Proof. exact (kept_and RInv GevKinds KInv kept_RInv (fun w => @proj2 _ _) GevKinds_stable K_stable). Qed.

Section WithBeh.
Variable beh : hinfo -> logent -> N -> script.

Theorem deliver_one_K it w : WInv w -> GevKinds w -> KInv w -> KInv (snd (fst (deliver_one beh it w))).
Proof. intros HW HG HK. exact (proj2 (stable_deliver_one beh _ RK_stable it w HW (conj HG HK))). Qed.

Theorem flush_FInv_loop n q w tr s' oc :
  Loop.flush wst qitem (run_w beh) unwind_w n q (w, None) [] = Some (tr, s', oc) -> FInv w -> FInv (fst s').
Proof. exact (kept_flush_loop beh FInv FInv_kept n q w tr s' oc). Qed.

Lemma flush_FInv q w : FInv w -> FInv (res_world (flush beh q w)).
Proof. exact (kept_flush beh FInv FInv_kept q w). Qed.

Lemma tev_run_handlers hl w it tag loc sent : w_tev (fst (fst (fst (fst (run_handlers beh hl w it tag loc sent))))) = w_tev w.
Proof. apply (r_run_handlers w_tev); fr. Qed.
Lemma tev_ev_drop w t tag ev : w_tev (ev_drop w t tag ev) = w_tev w.
Proof. apply (r_ev_drop w_tev); fr. Qed.
End WithBeh.

(* the component registry modulo member_of is untouched by sending *)
Definition cstat (ci : cinfo) := (c_tag ci, c_ins ci, c_rem ci).
Definition creg (w : world) := (map (fun s => (gen s, link s, option_map cstat (val s))) (slots (w_comps w)), w_cby w, w_tev w).

Lemma creg_of_kreg w w' : kreg w' = kreg w -> creg w' = creg w.
Proof. unfold kreg, creg. intros H. injection H as -> -> ->. reflexivity. Qed.
Lemma creg_structure w w' : structure w' = structure w -> w_tev w' = w_tev w -> creg w' = creg w.
Proof. intros Hs Ht. destruct (structure_cshape w w' Hs) as (_ & A & B). unfold creg. now rewrite A, B, Ht. Qed.

Lemma creg_upd_member (m : smap cinfo) c (f : cinfo -> cinfo) : (forall ci, cstat (f ci) = cstat ci) ->
  map (fun s => (gen s, link s, option_map cstat (val s))) (slots (upd_by_index m c f)) = map (fun s => (gen s, link s, option_map cstat (val s))) (slots m).
Proof. exact (slots_view_upd cstat m c f). Qed.
Lemma creg_fold_upd skip f cs : (forall ci, cstat (f ci) = cstat ci) -> forall m, slots_view cstat (fold_upd skip f cs m) = slots_view cstat m.
Proof.
  intros Hf. induction cs as [|c cs IH]; intros m; cbn [fold_upd fold_left]; [reflexivity|].
  fold (fold_upd skip f cs (if skip c then m else upd_by_index m c f)). rewrite IH. destruct (skip c); [reflexivity|now apply slots_view_upd].
Qed.

Lemma creg_create_arch w cs ins rem : creg (snd (create_arch w cs ins rem)) = creg w.
Proof.
  rewrite create_arch_eq. unfold creg. cbn [snd w_comps w_cby w_tev set_archs set_aidx set_comps]. do 2 f_equal.
  apply (creg_fold_upd (fun _ => false)). reflexivity.
Qed.
Lemma creg_traverse_insert w src c : creg (res_world (traverse_insert w src c)) = creg w.
Proof. apply (r_traverse_insert creg); [apply creg_create_arch|fr]. Qed.
Lemma creg_traverse_remove w src c : creg (res_world (traverse_remove w src c)) = creg w.
Proof. apply (r_traverse_remove creg); [apply creg_create_arch|fr]. Qed.
Lemma creg_builtin_effect kind ev loc w : creg (res_world (builtin_effect kind ev loc w)) = creg w.
Proof. apply (r_builtin_effect creg); try apply creg_create_arch; fr. Qed.

Section WithBeh2.
Variable beh : hinfo -> logent -> N -> script.

Lemma creg_deliver_one it w : creg (snd (fst (deliver_one beh it w))) = creg w.
Proof. apply (r_deliver_one creg); try apply creg_create_arch; fr. Qed.

Lemma creg_flush q w : creg (res_world (flush beh q w)) = creg w.
Proof. apply (r_flush creg); try apply creg_create_arch; fr. Qed.
Lemma creg_gev fuel : forall tag w,
  creg (res_world (add_global_event beh fuel tag w)) = creg w /\ forall ev, creg (res_world (send_global beh fuel tag ev w)) = creg w.
Proof. apply (gev_frame beh creg); try reflexivity; [apply creg_flush|intros; apply (r_ev_drop creg); fr]. Qed.
Lemma creg_send_global tag ev w : creg (res_world (send_global beh RFUEL tag ev w)) = creg w.
Proof. apply (gev_frame beh creg); try reflexivity; [apply creg_flush|intros; apply (r_ev_drop creg); fr]. Qed.
End WithBeh2.

Lemma creg_get w w' k ci : creg w' = creg w -> sm_get k (w_comps w) = Some ci ->
  exists ci', sm_get k (w_comps w') = Some ci' /\ cstat ci' = cstat ci.
Proof.
  unfold creg. intros H Hg. injection H as Hm _ _. pose proof (slots_view_get cstat _ _ k Hm) as E. rewrite Hg in E.
  destruct (sm_get k (w_comps w')) as [ci'|]; [exists ci'; split; [reflexivity|cbn in E; congruence]|discriminate].
Qed.

Lemma FInv_same_k w w' : RInv w' -> kreg w' = kreg w -> cshape (w_archs w') = cshape (w_archs w) -> FInv w -> FInv w'.
Proof. intros HR Hk Hc [_ HK]. split; [exact HR|]. eapply KInv_kreg; eauto. Qed.

(* registering a new component type *)
Lemma comp_entry_K tag w k m : KInv w -> insert_with (fun _ => mkC tag [] [] []) (w_comps w) = Some (k, m) -> KInv (comp_entry_world w tag k m).
Proof.
  intros (S1 & S2 & K1 & K2 & K3 & K5) Ei.
  assert (Hfresh : get_by_index (w_comps w) (fst k) = None) by (eapply gbi_insert_fresh; eauto).
  assert (Hnew : get_by_index m (fst k) = Some (k, mkC tag [] [] [])) by (eapply (gbi_insert_new (fun _ => mkC tag [] [] [])); eauto).
  assert (Hold : forall i, i <> fst k -> get_by_index m i = get_by_index (w_comps w) i) by (intros; eapply gbi_insert_other; eauto).
  split; [eapply insert_inv; eauto|]. split; [exact S2|]. split; [|split; [|split]].
  - intros c kc ci Hg. cbn [w_comps comp_entry_world set_comps] in Hg. destruct (N.eq_dec c (fst k)) as [->|Hne].
    + rewrite Hnew in Hg. assert (Eci : ci = mkC tag [] [] []) by congruence. subst ci. cbn [c_member_of]. split; [constructor|]. intros ai. split; [intros []|].
      intros (a & Ha & Hin). exfalso. apply (K2 ai a (fst k) Ha Hin). exact Hfresh.
    + rewrite Hold in Hg by exact Hne. exact (K1 c kc ci Hg).
  - intros ai a c Ha Hin. unfold comp_live. cbn [w_comps comp_entry_world set_comps]. destruct (N.eq_dec c (fst k)) as [->|Hne]; [now rewrite Hnew|].
    rewrite Hold by exact Hne. exact (K2 ai a c Ha Hin).
  - intros i kk info c Hg Hk3. destruct (K3 i kk info c Hg Hk3) as (kc & ci & Hgc & Hin). exists kc, ci. split; [|exact Hin].
    cbn [w_comps comp_entry_world set_comps]. eapply gbi_insert_old; eauto.
  - exact (byok_insert c_tag _ _ _ _ tag _ S1 Ei eq_refl K5).
Qed.

Lemma add_component_entry_FInv tag w k m : FInv w -> alookup tag (w_cby w) = None ->
  insert_with (fun _ => mkC tag [] [] []) (w_comps w) = Some (k, m) ->
  FInv (set_comps w m (ainsert tag k (w_cby w))) /\ get_by_index m (fst k) = Some (k, mkC tag [] [] []).
Proof.
  intros [HR HK] _ Ei. split; [split; [apply (RInv_ext w); try reflexivity; exact HR|exact (comp_entry_K tag w k m HK Ei)]|].
  exact (gbi_insert_new (fun _ => mkC tag [] [] []) _ _ _ (proj1 HK) Ei).
Qed.

Lemma KInv_upd_lists w c f :
  (forall ci, c_tag (f ci) = c_tag ci /\ c_member_of (f ci) = c_member_of ci) ->
  (forall ci x, sm_get x (w_tev w) <> None -> In x (c_ins ci ++ c_rem ci) -> In x (c_ins (f ci) ++ c_rem (f ci))) ->
  KInv w -> KInv (set_comps w (upd_by_index (w_comps w) c f) (w_cby w)).
Proof.
  intros Hf Hin (S1 & S2 & K1 & K2 & K3 & K5). pose proof (gbi_upd (w_comps w) c f) as Hg.
  unfold KInv, comp_live. cbn [w_comps w_tev w_cby set_comps].
  change (arch_at (set_comps w (upd_by_index (w_comps w) c f) (w_cby w))) with (arch_at w).
  split; [now apply upd_index_inv|]. split; [exact S2|]. split; [|split; [|split]].
  - intros i k ci' Hgi. rewrite Hg in Hgi. destruct (i =? c); [|exact (K1 i k ci' Hgi)].
    destruct (get_by_index (w_comps w) i) as [[k0 ci]|] eqn:E; [|discriminate]. inversion Hgi; subst. rewrite (proj2 (Hf ci)). exact (K1 i k ci E).
  - intros ai a i Ha Hi. exact (upd_live _ _ _ _ Hg i (K2 ai a i Ha Hi)).
  - intros i k info c0 Hgi Hk. destruct (K3 i k info c0 Hgi Hk) as (kc & ci & Hgc & Hi).
    destruct (upd_entry _ _ _ _ Hg _ _ _ Hgc) as (ci' & Hg' & [->| ->]); exists kc; eexists; (split; [exact Hg'|]); [exact Hi|].
    apply Hin; [|exact Hi]. destruct (get_of_gbi _ _ _ _ Hgi) as [_ X]. congruence.
  - intros tag k Hl. exact (upd_key _ _ _ _ Hg tag k (fun ci => proj1 (Hf ci)) (K5 tag k Hl)).
Qed.
Lemma KInv_grow_lists w c f :
  (forall ci, c_tag (f ci) = c_tag ci /\ c_member_of (f ci) = c_member_of ci /\ incl (c_ins ci ++ c_rem ci) (c_ins (f ci) ++ c_rem (f ci))) ->
  KInv w -> KInv (set_comps w (upd_by_index (w_comps w) c f) (w_cby w)).
Proof. intros Hf. apply KInv_upd_lists; [intros ci; split; apply (Hf ci)|intros ci x _; apply (proj2 (proj2 (Hf ci)))]. Qed.

Lemma KInv_insert_tev w k m tag kind tby :
  KInv w -> insert_with (fun _ => mkE tag kind) (w_tev w) = Some (k, m) ->
  (forall c, kind = KInsert c \/ kind = KRemove c -> exists kc ci, get_by_index (w_comps w) c = Some (kc, ci) /\ In k (c_ins ci ++ c_rem ci)) ->
  KInv (set_tev w m tby).
Proof.
  intros (S1 & S2 & K1 & K2 & K3 & K5) Ei Hnew. unfold KInv, comp_live. cbn [w_comps w_tev w_cby set_tev].
  change (arch_at (set_tev w m tby)) with (arch_at w).
  split; [exact S1|]. split; [eapply insert_inv; eauto|]. split; [exact K1|]. split; [exact K2|]. split; [|exact K5].
  intros i k' info c Hg Hk. destruct (N.eq_dec i (fst k)) as [->|Hne].
  - rewrite (gbi_insert_new _ _ _ _ S2 Ei) in Hg. inversion Hg; subst k' info. cbn [e_kind] in Hk. now apply Hnew.
  - rewrite (gbi_insert_other _ _ _ _ i S2 Ei Hne) in Hg. exact (K3 i k' info c Hg Hk).
Qed.

Definition tev_entry_world (w0 : world) (tag : N) (kind : ekind) (k : key) (m : smap einfo) : world :=
  let w1 := set_tev w0 m (ainsert tag k (w_tby w0)) in
  match kind with
  | KInsert c => set_comps w1 (upd_by_index (w_comps w1) c (fun ci => mkC (c_tag ci) (c_member_of ci) (c_ins ci ++ [k]) (c_rem ci))) (w_cby w1)
  | KRemove c => set_comps w1 (upd_by_index (w_comps w1) c (fun ci => mkC (c_tag ci) (c_member_of ci) (c_ins ci) (c_rem ci ++ [k]))) (w_cby w1)
  | _ => w1 end.

Lemma tev_entry_K w0 tag kind k m : KInv w0 -> kind_comp_live w0 kind ->
  insert_with (fun _ => mkE tag kind) (w_tev w0) = Some (k, m) -> KInv (tev_entry_world w0 tag kind k m).
Proof.
  intros HK0 Hl Ei. unfold tev_entry_world. cbn zeta.
  (* the update of the lists and that of the event registry commute; the lists are grown first *)
  destruct kind as [|c|c| |]; try (eapply KInv_insert_tev; eauto; intros c [X|X]; discriminate);
    change (set_comps (set_tev w0 m ?t) ?cm ?cb) with (set_tev (set_comps w0 cm cb) m t);
    (eapply KInv_insert_tev; [apply (KInv_upd_lists w0); [now split| |exact HK0]|exact Ei|]).
  1,3: intros ci x _; cbn [c_ins c_rem]; rewrite !in_app_iff; tauto.
  all: intros c' [X|X]; inversion X; subst c'; cbn [w_comps set_comps set_tev]; rewrite gbi_upd, N.eqb_refl;
    unfold kind_comp_live, comp_live in Hl; (destruct (get_by_index (w_comps w0) c) as [[kc ci]|]; [|contradiction]);
    exists kc; eexists; (split; [reflexivity|]); cbn [c_ins c_rem]; rewrite !in_app_iff; cbn [In]; tauto.
Qed.

Lemma tev_entry_FInv w0 tag kind k m : FInv w0 -> kind_comp_live w0 kind ->
  insert_with (fun _ => mkE tag kind) (w_tev w0) = Some (k, m) -> FInv (tev_entry_world w0 tag kind k m).
Proof.
  intros [HR0 HK0] Hl Ei. split; [|exact (tev_entry_K _ _ _ _ _ HK0 Hl Ei)].
  unfold tev_entry_world. destruct kind; apply (RInv_ext w0); try reflexivity; exact HR0.
Qed.

Lemma kind_from_live w tag kind : KInv w -> kind_from w tag kind -> kind_comp_live w kind.
Proof.
  intros (_ & _ & _ & _ & _ & K5). destruct kind as [|c|c| |]; cbn [kind_from kind_comp_live]; try (intros; exact I);
    intros (k & <- & El); destruct (K5 _ _ El) as (ci & Hg & _); unfold comp_live; rewrite (gbi_of_get _ _ _ Hg); discriminate.
Qed.

(* taking a targeted event out of the registry: K3 only speaks of the registered events *)
Lemma KInv_remove_tev0 w k info m tby : KInv w -> sm_remove k (w_tev w) = Some (info, m) -> KInv (set_tev w m tby).
Proof.
  intros (S1 & S2 & K1 & K2 & K3 & K5) Er. unfold KInv, comp_live. cbn [w_comps w_tev w_cby set_tev].
  change (arch_at (set_tev w m tby)) with (arch_at w).
  split; [exact S1|]. split; [eapply remove_inv; eauto|]. split; [exact K1|]. split; [exact K2|]. split; [|exact K5].
  intros i k' info' c0 Hg Hk. exact (K3 i k' info' c0 (gbi_remove _ _ _ _ _ _ _ Er Hg) Hk).
Qed.
Lemma KInv_remove_tev w k info m tby c f :
  KInv w -> sm_remove k (w_tev w) = Some (info, m) ->
  (forall ci, c_tag (f ci) = c_tag ci /\ c_member_of (f ci) = c_member_of ci /\
              forall x, x <> k -> In x (c_ins ci ++ c_rem ci) -> In x (c_ins (f ci) ++ c_rem (f ci))) ->
  KInv (set_comps (set_tev w m tby) (upd_by_index (w_comps w) c f) (w_cby w)).
Proof.
  intros HK Er Hf. apply (KInv_upd_lists (set_tev w m tby)); [intros ci; split; apply (Hf ci)| |exact (KInv_remove_tev0 w k info m tby HK Er)].
  intros ci x Hx. apply (proj2 (proj2 (Hf ci))). intros ->. exact (Hx (remove_get_gone k (w_tev w) info m (proj1 (proj2 HK)) Er)).
Qed.

Lemma key_eqb_neq (x k : key) : x <> k -> key_eqb x k = false.
Proof.
  intros H. unfold key_eqb. destruct (fst x =? fst k) eqn:A; [|reflexivity]. destruct (snd x =? snd k) eqn:B; [|reflexivity].
  apply N.eqb_eq in A, B. exfalso. apply H. destruct x, k. cbn in *. congruence.
Qed.

Lemma tev_exit_K w k info m : KInv w -> sm_remove k (w_tev w) = Some (info, m) -> KInv (tev_exit_world w k info m).
Proof.
  intros HK Er. unfold tev_exit_world. cbn zeta. pose proof (KInv_remove_tev0 w k info m (aremove (e_tag info) (w_tby w)) HK Er) as H3.
  assert (Hne : forall x, sm_get x m <> None -> key_eqb x k = false).
  { intros x Hx. apply key_eqb_neq. intros ->. destruct HK as (_ & S2 & _). now rewrite (remove_get_gone k (w_tev w) info m S2 Er) in Hx. }
  destruct (e_kind info) as [|c|c| |]; try exact H3; (apply KInv_upd_lists; [now split| |exact H3]);
    intros ci x Hx; cbn [c_ins c_rem]; rewrite !in_app_iff, filter_In, (Hne x Hx); tauto.
Qed.

Lemma kreg_archs_register_handler w hk : kreg (archs_register_handler w hk) = kreg w.
Proof. now apply (archs_register_handler_frame kreg). Qed.
Lemma handler_entry_kreg sh c w1 k w3 : handler_entry sh c w1 = inr (k, w3) -> kreg w3 = kreg w1.
Proof. intros H. destruct (handler_entry_inv sh c w1 k w3 H) as (rv & acc & hs & _ & _ & _ & ->). now rewrite kreg_archs_register_handler. Qed.

Section Ops.
Variable beh : hinfo -> logent -> N -> script.

(* KInv looks at the component and targeted event registries and at the component lists of the archetypes *)
Definition KInv_over : Layer beh RInv.
Proof.
  apply (plain beh KInv); [|intros q w HR HK _; exact (proj2 (flush_FInv beh q w (conj HR HK)))]. intros b w w' Hp HR HK _.
  destruct Hp as [w w' Hq|w tag k m _ _|w tag k m _ Ei|w0 tag kind k m Hf _ _ Ei|sh w c w1 k w3 _ _ Eh|w1 k h w2 Eh|k w w1 w2 info m _ _ _ _ _|k w w1 w2 info m _ _ _ _ Er].
  - exact (K_stable _ _ (st_same (ss_quiet _ _ Hq)) (proj2 HR) HK).
  - exact HK.
  - exact (comp_entry_K tag w k m HK Ei).
  - exact (tev_entry_K w0 tag kind k m HK (kind_from_live _ _ _ HK Hf) Ei).
  - apply (KInv_kreg w1); [exact (handler_entry_kreg _ _ _ _ _ Eh)|exact (proj1 (structure_cshape _ _ (proj1 (handler_entry_structure _ _ _ _ _ Eh))))|exact HK].
  - destruct (handlers_remove_inv w1 k h w2 Eh) as (hs & _ & ->).
    match goal with |- KInv (archs_remove_handler ?w2 h) =>
      apply (KInv_kreg w2); [reflexivity|exact (proj1 (structure_cshape _ _ (proj1 (archs_remove_handler_structure w2 h))))|exact HK] end.
  - exact HK.
  - exact (tev_exit_K w2 k info m HK Er).
Defined.

Definition FInv_layer : Layer beh (fun _ => True) := stack (RInv_layer beh) KInv_over (fun w _ H => H).
Lemma FInv_layer_J w : lJ FInv_layer w <-> FInv w.
Proof. reflexivity. Qed.

Lemma tri_FInv {A} w (r : res A) Q : tri beh FInv_layer w r Q -> FInv (res_world r).
Proof. intros H. exact (proj1 (tri_J beh FInv_layer r w Q H)). Qed.
Lemma keeps_FInv {A} (r : res A) : keeps beh FInv_layer r -> FInv (res_world r).
Proof. intros H. exact (proj1 H). Qed.

(* add_component: the key it returns names a live component carrying that tag *)
Lemma add_component_FInv tag w : FInv w ->
  FInv (res_world (add_component beh tag w)) /\
  match add_component beh tag w with
  | ROk k w' => exists ci, sm_get k (w_comps w') = Some ci /\ c_tag ci = tag
  | RFail _ _ => True
  end.
Proof.
  intros HF. pose proof (add_component_tri beh FInv_layer tag w HF) as H.
  destruct (add_component beh tag w) as [k w'|f w']; [destruct H as (A & _ & B)|destruct H as (A & _)]; (split; [exact A|]); [|exact I].
  destruct A as [_ (_ & _ & _ & _ & _ & K5)]. exact (K5 tag k B).
Qed.

Lemma add_targeted_event_unfold tag w : add_targeted_event beh tag w =
  do (kind, w0) <- tev_stage1 beh tag w;
  match alookup tag (w_tby w0) with
  | Some k => ROk k w0
  | None =>
      match insert_with (fun _ => mkE tag kind) (w_tev w0) with
      | None => RFail (FPanic 5) w0
      | Some (k, m) => do (_, w3) <- send_global beh RFUEL G_ADDTE (mkEv 0 0 k) (tev_entry_world w0 tag kind k m); ROk k w3
      end
  end.
Proof. reflexivity. Qed.

Lemma add_targeted_event_FInv tag w : FInv w -> FInv (res_world (add_targeted_event beh tag w)).
Proof. intros H. exact (tri_FInv _ _ _ (add_targeted_event_tri beh FInv_layer tag w H)). Qed.

Lemma gev_FInv fuel : forall tag w, FInv w ->
  FInv (res_world (add_global_event beh fuel tag w)) /\ forall ev, FInv (res_world (send_global beh fuel tag ev w)).
Proof.
  intros tag w H. destruct (gev_tri beh FInv_layer fuel tag w H) as [A B].
  split; [exact (tri_FInv _ _ _ A)|intros ev; exact (tri_FInv _ _ _ (B ev))].
Qed.
Lemma send_global_FInv tag ev w : FInv w -> FInv (res_world (send_global beh RFUEL tag ev w)).
Proof. intros H. exact (tri_FInv _ _ _ (send_global_tri beh FInv_layer tag ev w H)). Qed.
Lemma add_global_event_FInv tag w : FInv w -> FInv (res_world (add_global_event beh RFUEL tag w)).
Proof. intros H. exact (tri_FInv _ _ _ (add_global_event_tri beh FInv_layer tag w H)). Qed.
Lemma send_to_FInv tag target ev w : FInv w -> FInv (res_world (send_to beh tag target ev w)).
Proof. intros H. exact (tri_FInv _ _ _ (send_to_tri beh FInv_layer tag target ev w H)). Qed.
Theorem op_spawn_FInv w : FInv w -> FInv (res_world (op_spawn beh w)).
Proof. intros H. exact (tri_FInv _ _ _ (op_spawn_tri beh FInv_layer w H)). Qed.
Theorem op_insert_FInv e ktag w : FInv w -> FInv (res_world (op_insert beh e ktag w)).
Proof. intros H. exact (tri_FInv _ _ _ (op_insert_tri beh FInv_layer e ktag w H)). Qed.
Theorem op_remove_FInv e ktag w : FInv w -> FInv (res_world (op_remove beh e ktag w)).
Proof. intros H. exact (tri_FInv _ _ _ (send_to_tri beh FInv_layer _ _ _ w H)). Qed.
Theorem op_despawn_FInv e w : FInv w -> FInv (res_world (op_despawn beh e w)).
Proof. intros H. exact (tri_FInv _ _ _ (send_to_tri beh FInv_layer _ _ _ w H)). Qed.
Theorem op_send_FInv gtag w : FInv w -> FInv (res_world (op_send beh gtag w)).
Proof. intros H. exact (tri_FInv _ _ _ (op_send_tri beh FInv_layer gtag w H)). Qed.
Theorem op_send_to_FInv e ttag w : FInv w -> FInv (res_world (op_send_to beh e ttag w)).
Proof. intros H. exact (tri_FInv _ _ _ (op_send_to_tri beh FInv_layer e ttag w H)). Qed.
Lemma resolve_query_FInv q : forall w, FInv w -> FInv (res_world (resolve_query beh q w)).
Proof. intros w H. exact (tri_FInv _ _ _ (resolve_query_tri beh FInv_layer q w H)). Qed.
Lemma register_set_FInv evs : forall w, FInv w -> FInv (res_world (register_set beh evs w)).
Proof. intros w H. exact (tri_FInv _ _ _ (register_set_tri beh FInv_layer evs w H)). Qed.
Lemma init_param_FInv p c w : FInv w -> FInv (res_world (init_param beh p c w)).
Proof. intros H. exact (tri_FInv _ _ _ (init_param_tri beh FInv_layer p c w H)). Qed.
Lemma init_params_FInv ps : forall c w, FInv w -> FInv (res_world (init_params beh ps c w)).
Proof. intros c w H. exact (tri_FInv _ _ _ (init_params_tri beh FInv_layer ps c w H)). Qed.
Theorem add_handler_FInv sh w : FInv w -> FInv (res_world (add_handler beh sh w)).
Proof. intros H. exact (tri_FInv _ _ _ (add_handler_tri beh FInv_layer sh w H)). Qed.
Theorem remove_handler_FInv k w : FInv w -> FInv (res_world (remove_handler beh k w)).
Proof. intros H. exact (keeps_FInv _ (remove_handler_keeps beh FInv_layer k w H)). Qed.
Lemma remove_handlers_FInv ks : forall w, FInv w -> FInv (res_world (remove_handlers beh ks w)).
Proof. intros w H. exact (keeps_FInv _ (remove_handlers_keeps beh FInv_layer ks w H)). Qed.
Theorem remove_global_event_FInv k w : FInv w -> FInv (res_world (remove_global_event beh k w)).
Proof. intros H. exact (keeps_FInv _ (remove_global_event_keeps beh FInv_layer k w H)). Qed.
Theorem remove_targeted_event_FInv k w : FInv w -> FInv (res_world (remove_targeted_event beh k w)).
Proof. intros H. exact (keeps_FInv _ (remove_targeted_event_keeps beh FInv_layer k w H)). Qed.
Lemma remove_tevents_FInv ks : forall w, FInv w -> FInv (res_world (remove_tevents beh ks w)).
Proof. intros w H. exact (keeps_FInv _ (remove_tevents_keeps beh FInv_layer ks w H)). Qed.

End Ops.

Lemma nposition_split (a : N) l : In a l -> exists l1 l2, l = l1 ++ a :: l2 /\ ~ In a l1 /\ nposition (N.eqb a) l = Some (nlen l1).
Proof. exact (nposition_eqb_split a l). Qed.
Lemma nposition_none (a : N) l : ~ In a l -> nposition (N.eqb a) l = None.
Proof. exact (nposition_eqb_none a l). Qed.

Lemma swap_remove_perm {A} (l1 : list A) a l2 : Permutation (swap_remove (l1 ++ a :: l2) (nlen l1)) (l1 ++ l2).
Proof.
  destruct l2 as [|b l2] using rev_ind.
  - rewrite swap_remove_snoc, N.eqb_refl, app_nil_r. reflexivity.
  - clear IHl2. replace (l1 ++ a :: l2 ++ [b]) with ((l1 ++ a :: l2) ++ [b]) by (rewrite <- app_assoc; reflexivity).
    rewrite swap_remove_snoc. replace (nlen l1 =? nlen (l1 ++ a :: l2)) with false by (symmetry; apply N.eqb_neq; rewrite nlen_app, nlen_cons; lia).
    rewrite nset_app_mid. apply Permutation_app_head. apply Permutation_cons_append.
Qed.

Lemma NoDup_app_r {A} (l1 l2 : list A) : NoDup (l1 ++ l2) -> NoDup l2.
Proof. induction l1 as [|h t IH]; [auto|]. cbn [app]. intros H. inversion H; auto. Qed.
Lemma swap_remove_mid {A} (l1 : list A) a l2 : exists l2', swap_remove (l1 ++ a :: l2) (nlen l1) = l1 ++ l2' /\ (forall x, In x l2' <-> In x l2) /\ (NoDup l2 -> NoDup l2').
Proof.
  destruct l2 as [|b l2] using rev_ind.
  - exists []. rewrite swap_remove_snoc, N.eqb_refl, app_nil_r. repeat split; auto.
  - clear IHl2. exists (b :: l2). replace (l1 ++ a :: l2 ++ [b]) with ((l1 ++ a :: l2) ++ [b]) by (rewrite <- app_assoc; reflexivity).
    rewrite swap_remove_snoc. replace (nlen l1 =? nlen (l1 ++ a :: l2)) with false by (symmetry; apply N.eqb_neq; rewrite nlen_app, nlen_cons; lia).
    rewrite ListN.nset_app_mid. split; [reflexivity|]. split.
    + intros x. rewrite in_app_iff. cbn [In]. tauto.
    + intros Hnd. apply NoDup_remove in Hnd as [Hnd Hni]. rewrite app_nil_r in *. constructor; assumption.
Qed.

Lemma swap_remove_val_spec a l : NoDup l -> NoDup (swap_remove_val a l) /\ forall x, In x (swap_remove_val a l) <-> In x l /\ x <> a.
Proof.
  intros Hnd. unfold swap_remove_val. destruct (in_dec N.eq_dec a l) as [Hin|Hn].
  - destruct (nposition_eqb_split a l Hin) as (l1 & l2 & -> & _ & ->). pose proof (swap_remove_perm l1 a l2) as Hp.
    pose proof (NoDup_remove_2 _ _ _ Hnd) as Hna. split; [exact (Permutation_NoDup (Permutation_sym Hp) (NoDup_remove_1 _ _ _ Hnd))|].
    intros x. split.
    + intros H. apply (Permutation_in _ Hp) in H. split; [rewrite in_app_iff in *; cbn [In]; tauto|intros ->; contradiction].
    + intros [H Hne]. apply (Permutation_in _ (Permutation_sym Hp)). rewrite in_app_iff in *. cbn [In] in H. destruct H as [H|[H|H]]; [now left|congruence|now right].
  - rewrite (nposition_eqb_none a l Hn). split; [exact Hnd|]. intros x. split; [intros H; split; [exact H|intros ->; contradiction]|tauto].
Qed.

Section RCK.
Variables (cidx ctag : N).

(* KInv while the removed component is already gone from the registry but archetypes may still mention it *)
Definition KJ (w : world) : Prop :=
  SmInv (w_comps w) /\ SmInv (w_tev w) /\ get_by_index (w_comps w) cidx = None /\
  (forall c k ci, get_by_index (w_comps w) c = Some (k, ci) ->
     NoDup (c_member_of ci) /\
     forall ai, In ai (c_member_of ci) <-> exists a, arch_at w ai = Some a /\ In c (a_comps a)) /\
  (forall ai a c, arch_at w ai = Some a -> In c (a_comps a) -> c = cidx \/ comp_live w c) /\
  (forall i k info c, get_by_index (w_tev w) i = Some (k, info) -> (e_kind info = KInsert c \/ e_kind info = KRemove c) ->
     exists kc ci, get_by_index (w_comps w) c = Some (kc, ci) /\ In k (c_ins ci ++ c_rem ci)) /\
  (forall tag k, alookup tag (w_cby w) = Some k -> exists ci, sm_get k (w_comps w) = Some ci /\ c_tag ci = tag).

Lemma creg_archs_remove_component w l : creg (archs_remove_component w cidx ctag l) = creg w.
Proof. apply (arc_pres cidx ctag creg); [|reflexivity]. intros w0 ai a D. unfold creg. cbn. do 2 f_equal. now apply creg_fold_upd. Qed.

Lemma rc_step_kreg w ai a : slab_get (w_archs w) ai = Some a ->
  kreg (rc_step cidx ctag w ai) =
    (fold_upd (fun c => c =? cidx) (fun ci => mkC (c_tag ci) (swap_remove_val ai (c_member_of ci)) (c_ins ci) (c_rem ci)) (a_comps a) (w_comps w),
     w_cby w, w_tev w).
Proof. intros Ha. destruct (rc_step_eq cidx ctag w ai a Ha) as (D & ->). reflexivity. Qed.
Lemma rc_step_kfields w ai a : slab_get (w_archs w) ai = Some a ->
  w_comps (rc_step cidx ctag w ai) =
    fold_upd (fun c => c =? cidx) (fun ci => mkC (c_tag ci) (swap_remove_val ai (c_member_of ci)) (c_ins ci) (c_rem ci)) (a_comps a) (w_comps w) /\
  w_cby (rc_step cidx ctag w ai) = w_cby w /\ w_tev (rc_step cidx ctag w ai) = w_tev w.
Proof. intros Ha. pose proof (rc_step_kreg w ai a Ha) as H. unfold kreg in H. injection H as A B C. auto. Qed.

Lemma KJ_step w ai a : J cidx w -> KJ w -> arch_at w ai = Some a -> has_c cidx a -> KJ (rc_step cidx ctag w ai).
Proof.
  intros HJ (S1 & S2 & K0 & K1 & K2 & K3 & K5) Ha Hc. pose proof (member_rc_step cidx ctag w ai) as Hmem.
  pose proof HJ as (_ & _ & _ & _ & _ & _ & Hso & _). assert (Hnd : NoDup (a_comps a)) by (apply sorted_NoDup; eapply Hso; eauto).
  destruct (rc_step_kfields w ai a Ha) as (Ec & Eb & Et). set (w' := rc_step cidx ctag w ai) in *. set (fm := rm_member ai).
  assert (Hg : forall i, get_by_index (w_comps w') i =
     if existsb (N.eqb i) (a_comps a) && negb (i =? cidx) then match get_by_index (w_comps w) i with Some (k, v) => Some (k, fm v) | None => None end else get_by_index (w_comps w) i).
  { intros i. rewrite Ec. apply (fold_upd_gbi (fun c => c =? cidx) fm (a_comps a) Hnd). }
  split; [rewrite Ec; now apply fold_upd_inv|]. split; [now rewrite Et|]. split; [|split; [|split; [|split]]].
  - rewrite Hg, K0. now destruct (_ && _).
  - intros c k ci' Hgc. rewrite Hg in Hgc. destruct (existsb (N.eqb c) (a_comps a) && negb (c =? cidx)) eqn:Ecase.
    + destruct (get_by_index (w_comps w) c) as [[k0 ci]|] eqn:E0; [|discriminate]. injection Hgc as -> <-. destruct (K1 c k ci E0) as [Hnd0 Hm].
      destruct (swap_remove_val_spec ai (c_member_of ci) Hnd0) as [Hnd1 Hin1]. split; [exact Hnd1|].
      intros aj. cbn [c_member_of fm rm_member]. rewrite Hin1, Hm. symmetry. apply Hmem.
    + destruct (K1 c k ci' Hgc) as [Hnd0 Hm]. split; [exact Hnd0|]. intros aj. rewrite Hm, (Hmem c aj). split; [|tauto]. intros H. split; [exact H|].
      (* [ai] is not listed: the step has updated every live component of [a] *)
      intros ->. destruct H as (b & Hb & Hin). replace b with a in Hin by congruence. apply existsb_In in Hin. rewrite Hin in Ecase.
      apply negb_false_iff, N.eqb_eq in Ecase. subst c. congruence.
  - intros aj b c Hb Hin. destruct (proj1 (Hmem c aj) (ex_intro _ b (conj Hb Hin))) as [(b0 & Hb0 & Hin0) _].
    destruct (K2 aj b0 c Hb0 Hin0) as [X|X]; [now left|right; now apply (upd_live _ _ _ _ Hg)].
  - intros i k info c Hgi Hk. rewrite Et in Hgi. destruct (K3 i k info c Hgi Hk) as (kc & ci & Hgc & Hin).
    destruct (upd_entry _ _ _ _ Hg _ _ _ Hgc) as (ci' & Hg' & [->| ->]); exists kc; eexists; (split; [exact Hg'|exact Hin]).
  - intros tag k Hl. rewrite Eb in Hl. exact (upd_key _ _ _ _ Hg tag k (fun _ => eq_refl) (K5 tag k Hl)).
Qed.

Lemma fold_JK l w : J cidx w -> KJ w -> (forall ai a, In ai l -> arch_at w ai = Some a -> has_c cidx a) -> KJ (fold_left (rc_step cidx ctag) l w).
Proof. intros HJ HK Hin. exact (proj2 (rc_fold cidx ctag KJ KJ_step l w HJ Hin HK)). Qed.

Lemma cshape_strip w : cshape (w_archs (strip cidx w)) = cshape (w_archs w).
Proof. unfold strip, cshape. cbn [w_archs set_archs sl_entries]. rewrite map_map. apply map_ext. intros [a|n]; reflexivity. Qed.

Lemma KJ_final w : KJ w -> (forall ai a, arch_at w ai = Some a -> ~ has_c cidx a) -> KInv (strip cidx w).
Proof.
  intros (S1 & S2 & K0 & K1 & K2 & K3 & K5) Hno. apply (KInv_ext w); try reflexivity; [apply cshape_strip|].
  split; [exact S1|]. split; [exact S2|]. split; [exact K1|]. split; [|split; [exact K3|exact K5]].
  intros ai a c Ha Hin. destruct (K2 ai a c Ha Hin) as [->|X]; [|exact X]. exfalso. exact (Hno ai a Ha Hin).
Qed.
End RCK.

Definition tev_le (w' w : world) : Prop := forall i x, get_by_index (w_tev w') i = Some x -> get_by_index (w_tev w) i = Some x.
Lemma tev_le_refl w : tev_le w w. Proof. intros i x H. exact H. Qed.
Lemma tev_le_trans a b c : tev_le a b -> tev_le b c -> tev_le a c. Proof. intros H1 H2 i x H. apply H2, H1, H. Qed.
Lemma tev_le_eq w' w : w_tev w' = w_tev w -> tev_le w' w. Proof. intros E i x H. now rewrite <- E. Qed.
Lemma tev_le_dead w' w k : tev_le w' w -> sm_get k (w_tev w) = None -> sm_get k (w_tev w') = None.
Proof.
  intros Hle Hd. destruct (sm_get k (w_tev w')) as [v|] eqn:E; [|reflexivity]. apply gbi_of_get in E. apply Hle in E.
  destruct (get_of_gbi _ _ _ _ E) as [_ X]. congruence.
Qed.

Lemma creg_tev w' w : creg w' = creg w -> w_tev w' = w_tev w.
Proof. intros H. exact (f_equal snd H). Qed.

Section Ops5.
Variable beh : hinfo -> logent -> N -> script.

Lemma tev_send_global tag ev w : w_tev (res_world (send_global beh RFUEL tag ev w)) = w_tev w.
Proof. apply creg_tev. apply creg_send_global. Qed.
Lemma tev_remove_handler k w : w_tev (res_world (remove_handler beh k w)) = w_tev w.
Proof.
  unfold remove_handler. destruct (sm_get k (w_hs w)) as [h0|]; [|reflexivity]. clear h0.
  pose proof (tev_send_global G_RMH (mkEv 0 0 k) w) as H. destruct (send_global beh RFUEL G_RMH (mkEv 0 0 k) w) as [[] w1|f w1]; cbn [rbind res_world] in *; [|exact H].
  unfold handlers_remove. destruct (sm_remove k (w_hs w1)) as [[h1 hs]|]; exact H.
Qed.
Lemma tev_remove_handlers ks : forall w, w_tev (res_world (remove_handlers beh ks w)) = w_tev w.
Proof.
  induction ks as [|k t IH]; intros w; cbn [remove_handlers]; [reflexivity|].
  pose proof (tev_remove_handler k w) as H. destruct (remove_handler beh k w) as [b w1|f w1]; cbn [rbind res_world] in *; [|exact H]. now rewrite IH.
Qed.

Lemma rte_post k w : FInv w ->
  tev_le (res_world (remove_targeted_event beh k w)) w /\
  match remove_targeted_event beh k w with ROk _ w' => sm_get k (w_tev w') = None | RFail _ _ => True end.
Proof.
  intros HF. unfold remove_targeted_event. destruct (sm_get k (w_tev w)) as [i0|] eqn:Hk; [|split; [apply tev_le_refl|exact Hk]].
  pose proof (tev_send_global G_RMTE (mkEv 0 0 k) w) as H1. pose proof (tri_FInv beh _ _ _ (send_global_tri beh (FInv_layer beh) G_RMTE (mkEv 0 0 k) w HF)) as F1.
  destruct (send_global beh RFUEL G_RMTE (mkEv 0 0 k) w) as [[] w1|f w1]; cbn [rbind res_world] in *; [|split; [now apply tev_le_eq|exact I]].
  match goal with |- context [remove_handlers beh ?ks w1] => pose proof (tev_remove_handlers ks w1) as H2; pose proof (proj1 (remove_handlers_keeps beh (FInv_layer beh) ks w1 F1) : FInv _) as F2;
    destruct (remove_handlers beh ks w1) as [[] w2|f w2] end; cbn [rbind res_world] in *; [|split; [apply tev_le_eq; congruence|exact I]].
  destruct (sm_remove k (w_tev w2)) as [[info m]|] eqn:Er; cbn [res_world]; [|split; [apply tev_le_eq; congruence|exact I]].
  assert (S2 : SmInv (w_tev w2)) by (destruct F2 as [_ (_ & X & _)]; exact X).
  assert (Ht4 : forall w4, w_tev w4 = m -> tev_le w4 w /\ sm_get k (w_tev w4) = None).
  { intros w4 E4. split.
    - intros i x Hg. rewrite E4 in Hg. destruct x as [k' info']. pose proof (gbi_remove _ _ _ _ _ _ _ Er Hg) as X. now rewrite H2, H1 in X.
    - rewrite E4. eapply remove_get_gone; eauto. }
  destruct (e_kind info); apply Ht4; reflexivity.
Qed.

Lemma rtes_post ks : forall w, FInv w ->
  tev_le (res_world (remove_tevents beh ks w)) w /\
  match remove_tevents beh ks w with ROk _ w' => forall k, In k ks -> sm_get k (w_tev w') = None | RFail _ _ => True end.
Proof.
  induction ks as [|k t IH]; intros w HF; cbn [remove_tevents]; [split; [apply tev_le_refl|intros k []]|].
  destruct (rte_post k w HF) as [L1 D1]. pose proof (proj1 (remove_targeted_event_keeps beh (FInv_layer beh) k w HF) : FInv _) as F1.
  destruct (remove_targeted_event beh k w) as [b w1|f w1]; cbn [rbind res_world] in *; [|split; [exact L1|exact I]].
  destruct (IH w1 F1) as [L2 D2]. split; [eapply tev_le_trans; eauto|].
  destruct (remove_tevents beh t w1) as [[] w2|f w2]; cbn [res_world] in *; [|exact I].
  intros k' [<-|Hin]; [eapply tev_le_dead; eauto|now apply D2].
Qed.
End Ops5.

Lemma KInv_unregister w k ci m : KInv w -> sm_remove k (w_comps w) = Some (ci, m) ->
  (forall i kk info, get_by_index (w_tev w) i = Some (kk, info) -> e_kind info <> KInsert (fst k) /\ e_kind info <> KRemove (fst k)) ->
  KJ (fst k) (set_comps w m (aremove (c_tag ci) (w_cby w))).
Proof.
  intros (S1 & S2 & K1 & K2 & K3 & K5) Er P5. pose proof (remove_get_self k (w_comps w) ci m Er) as Hk.
  unfold KJ, comp_live. cbn [w_comps w_tev w_cby set_comps]. change (arch_at (set_comps w m (aremove (c_tag ci) (w_cby w)))) with (arch_at w).
  split; [eapply remove_inv; eauto|]. split; [exact S2|]. split; [eapply gbi_remove_self; eauto|]. split; [|split; [|split]].
  - intros c kc cc Hg. destruct (N.eq_dec c (fst k)) as [->|Hne]; [rewrite (gbi_remove_self _ _ _ _ Er) in Hg; discriminate|].
    rewrite (gbi_remove_other _ _ _ _ c Er Hne) in Hg. exact (K1 c kc cc Hg).
  - intros ai a c Ha Hin. destruct (N.eq_dec c (fst k)) as [->|Hne]; [now left|right].
    rewrite (gbi_remove_other _ _ _ _ c Er Hne). exact (K2 ai a c Ha Hin).
  - intros i kk info c Hg Hc. destruct (K3 i kk info c Hg Hc) as (kc & cc & Hgc & Hin). exists kc, cc. split; [|exact Hin].
    rewrite (gbi_remove_other _ _ _ _ c Er); [exact Hgc|]. intros ->. destruct (P5 i kk info Hg) as [X Y]. destruct Hc; contradiction.
  - exact (byok_remove c_tag _ _ _ _ _ S1 Er K5).
Qed.

Lemma member_of_exact w k ci m : KInv w -> sm_remove k (w_comps w) = Some (ci, m) ->
  NoDup (c_member_of ci) /\ forall ai a, arch_at w ai = Some a -> (In ai (c_member_of ci) <-> In (fst k) (a_comps a)).
Proof.
  intros (_ & _ & K1 & _) Er. destruct (K1 (fst k) k ci (gbi_of_get _ _ _ (remove_get_self k (w_comps w) ci m Er))) as [Hnd Hm].
  split; [exact Hnd|]. intros ai a Ha. rewrite Hm. split; [intros (b & Hb & Hin); congruence|eauto].
Qed.

Section Ops6.
Variable beh : hinfo -> logent -> N -> script.

Lemma gev_rc_fold cidx ctag l : forall w, w_gev (fold_left (rc_step cidx ctag) l w) = w_gev w.
Proof. intros w. exact (arc_pres cidx ctag w_gev (fun _ _ _ _ => eq_refl) (fun _ => eq_refl) l w). Qed.

(* the component's exit: its Insert/Remove events have been removed, so that unregistering it leaves KJ, which the
   loop over member_of keeps; K1 says that member_of is what RemoveComp.v needs *)
Lemma FInv_comp_exit : comp_exit_ok (FInv_layer beh).
Proof.
  intros k w w1 dk w2 w3 w4 ci w5 ci' m _ _ _ _ _ _ _ _ _ _ _ _ _ HF4 Hk4 E5 _ HF5 Er _.
  destruct (rtes_post beh (c_ins ci ++ c_rem ci) w4 HF4) as [Hle Hdead]. rewrite E5 in Hle, Hdead. cbn [res_world] in Hle.
  destruct HF5 as [[HW5 HG5] HK5]. destruct (member_of_exact w5 k ci' m HK5 Er) as [Hnd Hmem].
  unfold comp_exit_world. set (w6 := set_comps w5 m (aremove (c_tag ci') (w_cby w5))). change (arch_at w5) with (arch_at w6) in Hmem.
  assert (P5 : forall i kk info, get_by_index (w_tev w5) i = Some (kk, info) -> e_kind info <> KInsert (fst k) /\ e_kind info <> KRemove (fst k)).
  { intros i kk info Hg. assert (Hlive : sm_get kk (w_tev w5) <> None) by (destruct (get_of_gbi _ _ _ _ Hg) as [_ X]; congruence).
    destruct HF4 as [_ (_ & _ & _ & _ & K34 & _)]. pose proof (gbi_of_get _ _ _ Hk4) as Hg4.
    assert (Hx : forall c, e_kind info = KInsert c \/ e_kind info = KRemove c -> c = (fst k) -> False).
    { intros c Hc ->. destruct (K34 i kk info (fst k) (Hle _ _ Hg) Hc) as (kc & ci4 & Hgc & Hin). rewrite Hg4 in Hgc. inversion Hgc; subst ci4.
      apply Hlive. now apply Hdead. }
    split; intros X; eapply Hx; eauto. }
  assert (HW6 : WInv w6) by (eapply WInv_ext; [| | |exact HW5]; reflexivity).
  split; [split|].
  - exact (proj1 (archs_remove_component_ok (fst k) (c_tag ci') w6 (c_member_of ci') HW6 Hnd Hmem)).
  - intros i kk info Hg. apply (HG5 i kk info). change (w_gev (refresh_cursor ?x)) with (w_gev x) in Hg. now rewrite (arc_pres _ _ w_gev) in Hg.
  - rewrite archs_remove_component_unfold. apply KJ_final.
    + apply fold_JK; [now apply WInv_J|exact (KInv_unregister w5 k ci' m HK5 Er P5)|]. intros ai a Hi Ha. now apply (Hmem ai a Ha).
    + apply rc_fold_clean. intros ai a Ha. apply (Hmem ai a Ha).
Qed.

Theorem remove_component_FInv k w : FInv w -> FInv (res_world (remove_component beh k w)).
Proof. intros HF. exact (proj1 (remove_component_keeps beh (FInv_layer beh) k w FInv_comp_exit HF)). Qed.
End Ops6.

(* ALL top-level calls of the driver *)
Inductive top_all := TA (o : top) | TRemoveComponent (k : key).

Definition run_top_all (beh : hinfo -> logent -> N -> script) (w : world) (o : top_all) : world :=
  match o with
  | TA o => run_top beh w o
  | TRemoveComponent k => res_world (remove_component beh k w)
  end.

Lemma run_top_all_keeps beh (L : Layer beh (fun _ => True)) : comp_exit_ok L -> forall w o, lJ L w -> lJ L (run_top_all beh w o).
Proof.
  intros Hexit w [o|k] HJ; cbn [run_top_all]; [now apply run_top_keeps|exact (proj1 (remove_component_keeps beh L k w Hexit HJ))].
Qed.
Lemma history_keeps beh (L : Layer beh (fun _ => True)) ops w : comp_exit_ok L -> lJ L w -> lJ L (fold_left (run_top_all beh) ops w).
Proof. intros Hexit H. apply fold_left_invariant; [exact H|exact (run_top_all_keeps beh L Hexit)]. Qed.
Lemma run_top_all_FInv beh w o : FInv w -> FInv (run_top_all beh w o).
Proof. exact (run_top_all_keeps beh (FInv_layer beh) (FInv_comp_exit beh) w o). Qed.

Lemma FInv_world0 fuel p : FInv (world0 fuel p).
Proof.
  split; [apply RInv_world0|]. unfold KInv, world0, comp_live, arch_at. cbn [w_comps w_tev w_cby w_archs].
  split; [apply empty_inv|]. split; [apply empty_inv|]. split; [|split; [|split]].
  - intros c k ci H. discriminate.
  - intros ai a c Ha Hin. unfold slab_get in Ha. cbn [sl_entries nget] in Ha. destruct (ai =? 0); [|discriminate]. inversion Ha; subst. destruct Hin.
  - intros i k info c H. discriminate.
  - intros tag k H. discriminate.
Qed.

(* C14 / C17 / C01 / C02 on the model: whatever sequence of calls is made - including removals of
   component types with populated archetypes - with whatever handler bodies, panics and fuel, the
   resulting world satisfies the storage, graph and registry invariants *)
Theorem reachable_FInv beh fuel p ops : FInv (fold_left (run_top_all beh) ops (world0 fuel p)).
Proof. exact (history_keeps beh (FInv_layer beh) ops _ (FInv_comp_exit beh) (FInv_world0 fuel p)). Qed.

(* from here on [lJ (FInv_layer beh) w] is read through [FInv_layer_J]: with transparent layers [apply] against a goal
   [lJ (X_layer beh) w] unfolds the whole stack of layers below X; the later files seal theirs in the same way *)
Global Opaque FInv_layer.
