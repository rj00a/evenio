(* RemoveComp.v : Archetypes::remove_component (archetype.rs:147-190 after fix F1) restores the
   whole storage invariant (C14, C17): given a consistent world and a member_of list that names
   exactly the live archetypes containing the removed component,
     - those archetypes disappear with their rows, their entities leave the entity map,
     - by_components forgets exactly their component lists, the slab free list stays a chain,
     - every remaining cached transition leads to a live archetype that differs by its label
       (in particular no transition is labelled with the removed component any more),
     - every other entity keeps every component value. *)
From Coq Require Import List NArith Bool Lia Sorted.
Import ListNotations.
Require Import EV.Base EV.ListN EV.Access EV.Query EV.SlotMap EV.Reserve EV.HList EV.Loop EV.World EV.SlotMapGet
  EV.ArchProofs EV.WorldFrame EV.Store EV.Graph EV.Effects EV.Reach.
Open Scope N_scope.

Lemma find_filter_sub {A} (p q : A -> bool) l : (forall x, p x = true -> q x = true) -> find p (filter q l) = find p l.
Proof.
  intros H. induction l as [|x l IH]; cbn [filter find]; [reflexivity|].
  destruct (q x) eqn:Q; cbn [find]; destruct (p x) eqn:P; auto. rewrite (H x P) in Q. discriminate.
Qed.
Lemma find_filter_none {A} (p q : A -> bool) l : (forall x, p x = true -> q x = false) -> find p (filter q l) = None.
Proof.
  intros H. induction l as [|x l IH]; cbn [filter find]; [reflexivity|].
  destruct (q x) eqn:Q; cbn [find]; [|exact IH]. destruct (p x) eqn:P; [rewrite (H x P) in Q; discriminate|exact IH].
Qed.

Definition remove_keys {V} (ks : list key) (m : smap V) : smap V :=
  fold_left (fun m e => match sm_remove e m with Some (_, m') => m' | None => m end) ks m.

Lemma remove_some {V} (m : smap V) k v : sm_get k m = Some v -> exists m', sm_remove k m = Some (v, m').
Proof. exact (sm_remove_live m k v). Qed.

(* a property of slot maps that removals keep *)
Lemma remove_keys_ind {V} (Q : smap V -> Prop) (ks : list key) :
  (forall k m v m', Q m -> sm_remove k m = Some (v, m') -> Q m') -> forall m, Q m -> Q (remove_keys ks m).
Proof.
  intros H. induction ks as [|e ks IH]; intros m Hm; cbn [remove_keys fold_left]; [exact Hm|]. apply IH.
  destruct (sm_remove e m) as [[v m']|] eqn:Er; [exact (H _ _ _ _ Hm Er)|exact Hm].
Qed.
Lemma remove_keys_get {V} (ks : list key) k : forall m : smap V, SmInv m ->
  sm_get k (remove_keys ks m) = if in_dec key_eq_dec k ks then None else sm_get k m.
Proof.
  induction ks as [|e ks IH]; intros m Hi; cbn [remove_keys fold_left]; [reflexivity|].
  fold (remove_keys ks (match sm_remove e m with Some (_, m') => m' | None => m end)).
  assert (Hi' : SmInv (match sm_remove e m with Some (_, m') => m' | None => m end)) by (destruct (sm_remove e m) as [[v m']|] eqn:Er; [eapply remove_inv; eauto|exact Hi]).
  rewrite (IH _ Hi'). destruct (in_dec key_eq_dec k ks) as [Hin|Hn]; [destruct (in_dec key_eq_dec k (e :: ks)) as [_|X]; [reflexivity|contradiction X; now right]|].
  destruct (sm_remove e m) as [[v m']|] eqn:Er.
  - destruct (in_dec key_eq_dec k (e :: ks)) as [[<-|X]|X]; [exact (remove_get_gone _ _ _ _ Hi Er)|contradiction|].
    apply (remove_get_other _ _ _ _ _ Hi Er). intros ->. apply X. now left.
  - destruct (in_dec key_eq_dec k (e :: ks)) as [[<-|X]|X]; [|contradiction|reflexivity].
    destruct (sm_get e m) as [v|] eqn:Hg; [|reflexivity]. destruct (sm_remove_live m e v Hg) as (m' & Hr). congruence.
Qed.
Lemma remove_keys_spec {V} (ks : list key) : forall (m : smap V), SmInv m -> NoDup ks -> (forall k, In k ks -> sm_get k m <> None) ->
  SmInv (remove_keys ks m) /\ (forall k, In k ks -> sm_get k (remove_keys ks m) = None) /\
  (forall k, ~ In k ks -> sm_get k (remove_keys ks m) = sm_get k m).
Proof.
  intros m Hi _ _. split; [exact (remove_keys_ind SmInv ks (fun k m0 v m' H Er => remove_inv _ _ _ _ H Er) m Hi)|].
  split; intros k Hk; rewrite (remove_keys_get ks k m Hi); destruct (in_dec key_eq_dec k ks); [reflexivity|contradiction|contradiction|reflexivity].
Qed.

Lemma aby_lookup_filter w (cs0 : list N) aby' : aby' = filter (fun p => negb (list_eqb N.eqb (fst p) cs0)) (w_aby w) ->
  forall cs, (match find (fun p => list_eqb N.eqb (fst p) cs) aby' with Some p => Some (snd p) | None => None end)
             = if list_eqb N.eqb cs cs0 then None else aby_lookup w cs.
Proof.
  intros -> cs. unfold aby_lookup. destruct (list_eqb N.eqb cs cs0) eqn:E.
  - apply list_eqb_N_spec in E. subst cs0. rewrite find_filter_none; [reflexivity|]. intros x Hx. now rewrite Hx.
  - rewrite find_filter_sub; [reflexivity|]. intros x Hx. apply list_eqb_N_spec in Hx. rewrite Hx, E. reflexivity.
Qed.

Lemma slab_get_remove s i j : slab_get (slab_remove s i) j = if j =? i then None else slab_get s j.
Proof. unfold slab_get, slab_remove. cbn [sl_entries]. rewrite nget_nset. destruct (j =? i); [now destruct (i <? _)|reflexivity]. Qed.

Section Step.
Variables (cidx ctag : N).

Definition rc_step (w' : world) (ai : N) : world :=
  match slab_get (w_archs w') ai with
  | None => w'
  | Some a =>
      let w1 := set_archs w' (slab_remove (w_archs w') ai) in
      let w2 := notify_remove_with w1 ai a in
      let w3 := set_comps w2 (fold_left (fun m c => if c =? cidx then m else
                   upd_by_index m c (fun ci => mkC (c_tag ci) (swap_remove_val ai (c_member_of ci)) (c_ins ci) (c_rem ci)))
                   (a_comps a) (w_comps w2)) (w_cby w2) in
      let w4 := set_aidx w3 (filter (fun p => negb (list_eqb N.eqb (fst p) (a_comps a))) (w_aby w3)) (w_auid w3) in
      let w5 := fold_left (fun w'' '(_, vals) =>
                   fold_left (fun w3' '(c, v) => drop_cval w3' (if c =? cidx then ctag else comp_tag w3' c) v) (combine (a_comps a) vals) w'')
                   (a_rows a) w4 in
      fold_left (fun w'' '(e, _) => match sm_remove e (w_ents w'') with Some (_, m) => set_ents w'' m | None => w'' end) (a_rows a) w5
  end.

Definition strip (w1 : world) : world :=
  set_archs w1 (mkSlab (map (fun e => match e with
     | SOcc a => SOcc (set_edges a (aremove cidx (a_ins a)) (aremove cidx (a_rem a)))
     | SVac n => SVac n end) (sl_entries (w_archs w1))) (sl_next (w_archs w1))).

Lemma archs_remove_component_unfold w member_of :
  archs_remove_component w cidx ctag member_of = strip (fold_left rc_step member_of w).
Proof. reflexivity. Qed.

(* the update of a member list, and what a step does before it destroys the values and forgets the entities *)
Definition rm_member (ai : N) (ci : cinfo) : cinfo := mkC (c_tag ci) (swap_remove_val ai (c_member_of ci)) (c_ins ci) (c_rem ci).
Definition rc_comps (ai : N) (cs : list N) (m : smap cinfo) : smap cinfo :=
  fold_left (fun m c => if c =? cidx then m else upd_by_index m c (rm_member ai)) cs m.
Definition rc_core (w : world) (ai : N) (a : arch) : world :=
  set_aidx (set_comps (notify_remove_with (set_archs w (slab_remove (w_archs w) ai)) ai a) (rc_comps ai (a_comps a) (w_comps w)) (w_cby w))
           (filter (fun p => negb (list_eqb N.eqb (fst p) (a_comps a))) (w_aby w)) (w_auid w).

Lemma fold_drops_eq {A} (f : world -> A -> world) (l : list A) :
  (forall w x, exists D, f w x = set_drops w (w_drops w ++ D)) -> forall w, exists D, fold_left f l w = set_drops w (w_drops w ++ D).
Proof.
  intros Hf. induction l as [|x l IH]; intros w; cbn [fold_left]; [exists []; destruct w; cbn; now rewrite app_nil_r|].
  destruct (Hf w x) as (D1 & ->). destruct (IH (set_drops w (w_drops w ++ D1))) as (D2 & ->). exists (D1 ++ D2). cbn. now rewrite app_assoc.
Qed.
Lemma fold_ents_eq (rows : list (key * list cval)) : forall w,
  fold_left (fun (w'' : world) '(e, _) => match sm_remove e (w_ents w'') with Some (_, m) => set_ents w'' m | None => w'' end) rows w
  = set_ents w (remove_keys (map fst rows) (w_ents w)).
Proof.
  induction rows as [|[e vals] rows IH]; intros w; cbn [fold_left map remove_keys fst]; [now destruct w|].
  rewrite IH. now destruct (sm_remove e (w_ents w)) as [[v m]|].
Qed.
Lemma ents_fold_remove (rows : list (key * list cval)) : forall w, w_ents (fold_left (fun (w'' : world) '(e, _) => match sm_remove e (w_ents w'') with Some (_, m) => set_ents w'' m | None => w'' end) rows w)
   = remove_keys (map fst rows) (w_ents w) /\
   w_archs (fold_left (fun (w'' : world) '(e, _) => match sm_remove e (w_ents w'') with Some (_, m) => set_ents w'' m | None => w'' end) rows w) = w_archs w /\
   w_aby (fold_left (fun (w'' : world) '(e, _) => match sm_remove e (w_ents w'') with Some (_, m) => set_ents w'' m | None => w'' end) rows w) = w_aby w /\
   w_gev (fold_left (fun (w'' : world) '(e, _) => match sm_remove e (w_ents w'') with Some (_, m) => set_ents w'' m | None => w'' end) rows w) = w_gev w.
Proof. intros w. rewrite fold_ents_eq. repeat split. Qed.

(* the step in closed form; [D] is what it destroys *)
Lemma rc_step_eq w ai a : slab_get (w_archs w) ai = Some a -> exists D,
  rc_step w ai = set_ents (set_drops (rc_core w ai a) (w_drops w ++ D)) (remove_keys (map fst (a_rows a)) (w_ents w)).
Proof.
  intros Ha. unfold rc_step. rewrite Ha. cbn zeta. rewrite fold_ents_eq. change (set_aidx _ _ _) with (rc_core w ai a).
  match goal with |- context [fold_left ?f (a_rows a) (rc_core w ai a)] => destruct (fold_drops_eq f (a_rows a)) with (w := rc_core w ai a) as (D & ->) end.
  - intros w0 [e vals]. apply fold_drops_eq. intros w1 [c v]. unfold drop_cval, log_drop. destruct (ctag_has_drop _); [eauto|exists []; destruct w1; cbn; now rewrite app_nil_r].
  - exists D. reflexivity.
Qed.

Lemma drops_rows_fields (rows : list (key * list cval)) (comps : list N) : forall w,
  let w5 := fold_left (fun (w'' : world) '(_, vals) =>
                   fold_left (fun w3' '(c, v) => drop_cval w3' (if c =? cidx then ctag else comp_tag w3' c) v) (combine comps vals) w'') rows w in
  w_ents w5 = w_ents w /\ w_archs w5 = w_archs w /\ w_aby w5 = w_aby w /\ w_gev w5 = w_gev w.
Proof. intros w. cbn zeta. repeat split; apply fold_left_pres; intros w' [e vals]; apply fold_left_pres; intros w'' [c v]; apply r_drop_cval; fr. Qed.

Lemma rc_step_fields w ai a : slab_get (w_archs w) ai = Some a ->
  w_ents (rc_step w ai) = remove_keys (map fst (a_rows a)) (w_ents w) /\
  w_archs (rc_step w ai) = slab_remove (w_archs w) ai /\
  w_aby (rc_step w ai) = filter (fun p => negb (list_eqb N.eqb (fst p) (a_comps a))) (w_aby w) /\
  w_gev (rc_step w ai) = w_gev w.
Proof. intros Ha. destruct (rc_step_eq w ai a Ha) as (D & ->). repeat split. Qed.

Lemma rc_step_cases w ai (P : world -> Prop) : (slab_get (w_archs w) ai = None -> P w) ->
  (forall a D, slab_get (w_archs w) ai = Some a -> P (set_ents (set_drops (rc_core w ai a) (w_drops w ++ D)) (remove_keys (map fst (a_rows a)) (w_ents w)))) ->
  P (rc_step w ai).
Proof.
  intros H0 H1. destruct (slab_get (w_archs w) ai) as [a|] eqn:Ha; [destruct (rc_step_eq w ai a Ha) as (D & ->); now apply H1|].
  unfold rc_step. rewrite Ha. now apply H0.
Qed.

Lemma rc_step_arch_at w ai j : arch_at (rc_step w ai) j = if j =? ai then None else arch_at w j.
Proof.
  apply rc_step_cases; unfold arch_at; [|intros a D _; apply slab_get_remove].
  intros Ha. destruct (N.eqb_spec j ai) as [->|_]; [exact Ha|reflexivity].
Qed.
Lemma rc_step_ents w ai : w_ents (rc_step w ai) = remove_keys (match arch_at w ai with Some a => map fst (a_rows a) | None => [] end) (w_ents w).
Proof. unfold arch_at. apply rc_step_cases; [intros ->; reflexivity|intros a D ->; reflexivity]. Qed.

Lemma rc_step_aby w ai cs : aby_lookup (rc_step w ai) cs =
  match arch_at w ai with Some a => if list_eqb N.eqb cs (a_comps a) then None else aby_lookup w cs | None => aby_lookup w cs end.
Proof.
  unfold arch_at. apply rc_step_cases; [now intros ->|]. intros a D ->. now apply aby_lookup_filter.
Qed.
End Step.

Lemma rows_nodup w ai a : StoreInv w -> arch_at w ai = Some a -> NoDup (map fst (a_rows a)).
Proof.
  intros (_ & _ & Hr) Ha. apply NoDup_nget. intros i j e Hi Hj. rewrite nget_map in *.
  destruct (nget (a_rows a) i) as [[e1 v1]|] eqn:Ei, (nget (a_rows a) j) as [[e2 v2]|] eqn:Ej; try discriminate. injection Hi as ->. injection Hj as ->.
  (* both rows are where the entity map says the entity is *)
  pose proof (proj1 (Hr _ _ _ _ _ Ha Ei)) as X. rewrite (proj1 (Hr _ _ _ _ _ Ha Ej)) in X. now inversion X.
Qed.

Section Inv.
Variable cidx : N.
Definition has_c (a : arch) : Prop := In cidx (a_comps a).

(* WInv with the transition clauses weakened: transitions out of archetypes that contain the
   component, and transitions labelled with it, may dangle while the loop runs *)
Definition J (w : world) : Prop :=
  StoreInv w /\ SlabInv (w_archs w) /\
  (forall ai a, arch_at w ai = Some a -> aby_lookup w (a_comps a) = Some ai) /\
  (forall cs ai, aby_lookup w cs = Some ai -> exists a, arch_at w ai = Some a /\ a_comps a = cs) /\
  (forall ai a c d, arch_at w ai = Some a -> alookup c (a_ins a) = Some d ->
     ~ In c (a_comps a) /\ (c <> cidx -> ~ has_c a -> exists b, arch_at w d = Some b /\ a_comps b = sorted_insert c (a_comps a))) /\
  (forall ai a c d, arch_at w ai = Some a -> alookup c (a_rem a) = Some d ->
     In c (a_comps a) /\ (~ has_c a -> exists b, arch_at w d = Some b /\ a_comps b = filter (fun x => negb (x =? c)) (a_comps a))) /\
  (forall ai a, arch_at w ai = Some a -> StronglySorted N.lt (a_comps a)) /\
  aby_lookup w [] = Some 0.

Lemma WInv_J w : WInv w -> J w.
Proof.
  intros (Hst & (Hs & Hb1 & Hb2 & Hi & Hr & Hso) & H0).
  split; [exact Hst|]. split; [exact Hs|]. split; [exact Hb1|]. split; [exact Hb2|]. split; [|split; [|split; [exact Hso|exact H0]]].
  - intros ai a c d Ha Hl. destruct (Hi _ _ _ _ Ha Hl) as [X Y]. split; [exact X|]. intros _ _. exact Y.
  - intros ai a c d Ha Hl. destruct (Hr _ _ _ _ Ha Hl) as [X Y]. split; [exact X|]. intros _. exact Y.
Qed.

Lemma J_ext w w' : w_ents w' = w_ents w -> w_archs w' = w_archs w -> w_aby w' = w_aby w -> J w -> J w'.
Proof.
  intros He Ha Hb (Hst & Hs & Hb1 & Hb2 & Hi & Hr & Hso & H0). unfold J, arch_at, aby_lookup in *. rewrite Ha, Hb.
  split; [eapply StoreInv_ext; eauto|]. repeat split; auto; try (eapply Hi; eauto); try (eapply Hr; eauto).
Qed.

Lemma NoDup_app_snoc {A} (l : list A) x : NoDup l -> ~ In x l -> NoDup (l ++ [x]).
Proof.
  induction l as [|y l IH]; intros Hnd Hin; cbn [app]; [constructor; [intros []|constructor]|].
  inversion Hnd; subst. constructor.
  - intros X. apply in_app_or in X as [X|[X|[]]]; [contradiction|]. subst. apply Hin. now left.
  - apply IH; [assumption|]. intros X. apply Hin. now right.
Qed.

Lemma in_rows_nget (rows : list (key * list cval)) e : In e (map fst rows) -> exists row vals, nget rows row = Some (e, vals).
Proof.
  intros H. apply in_map_iff in H as ([e' vals] & He & Hin). cbn [fst] in He. subst e'. destruct (in_nget _ _ Hin) as (i & Hi). eauto.
Qed.

Lemma J_step ctag w ai a : J w -> arch_at w ai = Some a -> has_c a -> J (rc_step cidx ctag w ai).
Proof.
  intros (Hst & Hs & Hb1 & Hb2 & Hi & Hr & Hso & H0) Ha Hc. pose proof Hst as (Hsm & Hl & Hrr).
  pose proof (rc_step_arch_at cidx ctag w ai) as Hat. pose proof (rc_step_ents cidx ctag w ai) as Ee.
  pose proof (rc_step_aby cidx ctag w ai) as Haby. rewrite Ha in Ee, Haby. set (w' := rc_step cidx ctag w ai) in *.
  assert (Hget : forall k, sm_get k (w_ents w') = if in_dec key_eq_dec k (map fst (a_rows a)) then None else sm_get k (w_ents w)) by (intros k; rewrite Ee; now apply remove_keys_get).
  assert (Hfw : forall j b, arch_at w' j = Some b -> j <> ai /\ arch_at w j = Some b).
  { intros j b Hj. rewrite Hat in Hj. destruct (N.eqb_spec j ai); [discriminate|auto]. }
  (* an archetype with other components than [a] is not at [ai] *)
  assert (Hkeep : forall d cs, (exists b, arch_at w d = Some b /\ a_comps b = cs) -> cs <> a_comps a -> exists b, arch_at w' d = Some b /\ a_comps b = cs).
  { intros d cs (b & Hb & Hcs) Hne. exists b. split; [|exact Hcs]. rewrite Hat. destruct (N.eqb_spec d ai) as [->|_]; [congruence|exact Hb]. }
  split; [|split; [|split; [|split; [|split; [|split; [|split]]]]]].
  - split; [rewrite Ee; apply remove_keys_ind; [intros; eapply remove_inv; eauto|exact Hsm]|]. split.
    + intros e aj row He. rewrite Hget in He. destruct (in_dec key_eq_dec e (map fst (a_rows a))) as [Hin|Hnin]; [discriminate|].
      destruct (Hl _ _ _ He) as (b & vals & Hb & Hn). exists b, vals. split; [|exact Hn].
      rewrite Hat. destruct (N.eqb_spec aj ai) as [->|_]; [|exact Hb]. elim Hnin. replace a with b by congruence.
      apply in_map_iff. exists (e, vals). split; [reflexivity|]. eapply nget_in; eauto.
    + intros aj b row e vals Hb Hn. destruct (Hfw _ _ Hb) as [Hne Hb0]. destruct (Hrr _ _ _ _ _ Hb0 Hn) as [Hg Hlen]. split; [|exact Hlen].
      rewrite Hget. destruct (in_dec key_eq_dec e (map fst (a_rows a))) as [Hin|_]; [|exact Hg].
      destruct (in_rows_nget _ _ Hin) as (row' & vals' & Hn'). destruct (Hrr _ _ _ _ _ Ha Hn') as [Hg' _]. congruence.
  - unfold w'. unfold arch_at in Ha. destruct (rc_step_eq cidx ctag w ai a Ha) as (D & ->). exact (proj2 (proj2 (slab_remove_spec (w_archs w) ai a Hs Ha))).
  - intros j b Hj. destruct (Hfw _ _ Hj) as [Hne Hb0]. rewrite Haby, (Hb1 _ _ Hb0). destruct (list_eqb N.eqb (a_comps b) (a_comps a)) eqn:F; [|reflexivity].
    apply list_eqb_N_spec in F. pose proof (Hb1 _ _ Hb0) as X. rewrite F, (Hb1 _ _ Ha) in X. congruence.
  - intros cs j Hlk. rewrite Haby in Hlk. destruct (list_eqb N.eqb cs (a_comps a)) eqn:F; [discriminate|].
    apply Hkeep; [exact (Hb2 _ _ Hlk)|]. intros ->. now rewrite (proj2 (list_eqb_N_spec _ _) eq_refl) in F.
  - intros j b c d Hj Hlk. destruct (Hi _ _ _ _ (proj2 (Hfw _ _ Hj)) Hlk) as [Hn Ht]. split; [exact Hn|].
    intros Hcc Hnc. apply Hkeep; [exact (Ht Hcc Hnc)|]. intros E. unfold has_c in Hc. rewrite <- E in Hc. apply sorted_insert_in in Hc as [X|X]; [now apply Hcc|now apply Hnc].
  - intros j b c d Hj Hlk. destruct (Hr _ _ _ _ (proj2 (Hfw _ _ Hj)) Hlk) as [Hn Ht]. split; [exact Hn|].
    intros Hnc. apply Hkeep; [exact (Ht Hnc)|]. intros E. unfold has_c in Hc. rewrite <- E in Hc. apply filter_In in Hc as [X _]. now apply Hnc.
  - intros j b Hj. exact (Hso _ _ (proj2 (Hfw _ _ Hj))).
  - rewrite Haby. destruct (list_eqb N.eqb [] (a_comps a)) eqn:F; [|exact H0]. apply list_eqb_N_spec in F. unfold has_c in Hc. rewrite <- F in Hc. destruct Hc.
Qed.
End Inv.

Section Whole.
Variables (cidx ctag : N).

Lemma flat_map_ext_in' {A B} (f g : A -> list B) l : (forall x, In x l -> f x = g x) -> flat_map f l = flat_map g l.
Proof. induction l as [|x l IH]; intros H; cbn [flat_map]; [reflexivity|]. rewrite H by now left. f_equal. apply IH. intros; apply H; now right. Qed.

Definition removed_rows (w : world) (l : list N) : list key :=
  flat_map (fun ai => match arch_at w ai with Some a => map fst (a_rows a) | None => [] end) l.

Lemma rc_step_dead w ai : arch_at w ai = None -> rc_step cidx ctag w ai = w.
Proof. unfold arch_at, rc_step. now intros ->. Qed.

Lemma rc_fold_arch_at l j : forall w, arch_at (fold_left (rc_step cidx ctag) l w) j = if existsb (N.eqb j) l then None else arch_at w j.
Proof.
  induction l as [|ai l IH]; intros w; cbn [fold_left existsb]; [reflexivity|]. rewrite IH, rc_step_arch_at.
  destruct (j =? ai); [now destruct (existsb _ l)|reflexivity].
Qed.

Lemma rc_fold_clean l w : (forall ai a, arch_at w ai = Some a -> has_c cidx a -> In ai l) ->
  forall ai a, arch_at (fold_left (rc_step cidx ctag) l w) ai = Some a -> ~ has_c cidx a.
Proof.
  intros H ai a Ha Hc. rewrite rc_fold_arch_at in Ha. destruct (existsb (N.eqb ai) l) eqn:E; [discriminate|].
  pose proof (proj2 (smem_in ai l) (H ai a Ha Hc) : existsb _ _ = true). congruence.
Qed.

Lemma remove_keys_app {V} a b (m : smap V) : remove_keys (a ++ b) m = remove_keys b (remove_keys a m).
Proof. apply fold_left_app. Qed.
Lemma rc_fold_ents l : NoDup l -> forall w, w_ents (fold_left (rc_step cidx ctag) l w) = remove_keys (removed_rows w l) (w_ents w).
Proof.
  induction 1 as [|ai l Hni _ IH]; intros w; cbn [fold_left]; [reflexivity|]. rewrite IH, rc_step_ents. unfold removed_rows at 2. cbn [flat_map].
  rewrite remove_keys_app. f_equal. apply flat_map_ext_in'. intros j Hj. rewrite rc_step_arch_at.
  destruct (j =? ai) eqn:E; [apply N.eqb_eq in E; subst; contradiction|reflexivity].
Qed.

(* the loop: [J], and with it whatever a step keeps on its strength *)
Lemma rc_fold (P : world -> Prop) :
  (forall w ai a, J cidx w -> P w -> arch_at w ai = Some a -> has_c cidx a -> P (rc_step cidx ctag w ai)) ->
  forall l w, J cidx w -> (forall ai a, In ai l -> arch_at w ai = Some a -> has_c cidx a) -> P w ->
  J cidx (fold_left (rc_step cidx ctag) l w) /\ P (fold_left (rc_step cidx ctag) l w).
Proof.
  intros Hstep. induction l as [|ai l IH]; intros w HJ Hin HP; cbn [fold_left]; [now split|].
  assert (Hin' : forall aj b, In aj l -> arch_at (rc_step cidx ctag w ai) aj = Some b -> has_c cidx b).
  { intros aj b Hj Hb. rewrite rc_step_arch_at in Hb. destruct (aj =? ai); [discriminate|]. eapply Hin; [right; exact Hj|exact Hb]. }
  destruct (arch_at w ai) as [a|] eqn:Ha; [|rewrite (rc_step_dead w ai Ha) in *; now apply IH].
  pose proof (Hin ai a (or_introl eq_refl) Ha) as Hc. apply IH; [now apply (J_step cidx ctag w ai a)|exact Hin'|now apply (Hstep w ai a)].
Qed.
Lemma fold_J l w : J cidx w -> (forall ai a, In ai l -> arch_at w ai = Some a -> has_c cidx a) -> J cidx (fold_left (rc_step cidx ctag) l w).
Proof. intros HJ Hin. exact (proj1 (rc_fold (fun _ => True) (fun _ _ _ _ _ _ _ => I) l w HJ Hin I)). Qed.
Lemma rc_fold_abs l w : StoreInv w -> NoDup l -> forall k c, ~ In k (removed_rows w l) -> abs (fold_left (rc_step cidx ctag) l w) k c = abs w k c.
Proof.
  intros (Hsm & Hl & _) Hnd k c Hk. unfold abs. rewrite (rc_fold_ents l Hnd), (remove_keys_get _ k _ Hsm).
  destruct (in_dec key_eq_dec k (removed_rows w l)); [contradiction|]. destruct (sm_get k (w_ents w)) as [[aj row]|] eqn:Hg; [|reflexivity].
  rewrite rc_fold_arch_at. destruct (existsb (N.eqb aj) l) eqn:E; [|reflexivity].
  (* the archetype that holds [k] is not among those removed *)
  exfalso. apply Hk. destruct (Hl _ _ _ Hg) as (b & vals & Hb & Hn). apply in_flat_map. exists aj. split; [exact (proj1 (smem_in aj l) E)|]. rewrite Hb.
  apply in_map_iff. exists (k, vals). split; [reflexivity|]. eapply nget_in; eauto.
Qed.

(* the final sweep: every archetype drops its transitions labelled with the component *)
Definition strip_arch (a : arch) : arch := set_edges a (aremove cidx (a_ins a)) (aremove cidx (a_rem a)).
Definition strip_entry (e : sentry) : sentry := match e with SOcc a => SOcc (strip_arch a) | SVac n => SVac n end.

Lemma strip_arch_at w j : arch_at (strip cidx w) j = option_map strip_arch (arch_at w j).
Proof.
  unfold arch_at, strip, slab_get. cbn [w_archs set_archs sl_entries]. change (fun e => match e with SOcc a => SOcc (set_edges a (aremove cidx (a_ins a)) (aremove cidx (a_rem a))) | SVac n => SVac n end) with strip_entry.
  rewrite nget_map. destruct (nget (sl_entries (w_archs w)) j) as [[a|n]|]; reflexivity.
Qed.
Lemma abs_strip w k c : abs (strip cidx w) k c = abs w k c.
Proof. unfold abs. change (w_ents (strip cidx w)) with (w_ents w). destruct (sm_get k (w_ents w)) as [[aj row]|]; [|reflexivity]. rewrite strip_arch_at. now destruct (arch_at w aj). Qed.

Lemma schain_strip l : forall h c, schain l h c -> schain (map strip_entry l) h c.
Proof.
  intros h c H. induction H as [|i nx rest Hg _ IH]; [rewrite <- (nlen_map strip_entry l); constructor|].
  econstructor; [|exact IH]. rewrite nget_map, Hg. reflexivity.
Qed.

Lemma J_strip w : J cidx w -> (forall ai a, arch_at w ai = Some a -> ~ has_c cidx a) -> WInv (strip cidx w).
Proof.
  intros (Hst & Hs & Hb1 & Hb2 & Hi & Hr & Hso & H0) Hno.
  assert (Hfw : forall j a', arch_at (strip cidx w) j = Some a' -> exists a, arch_at w j = Some a /\ a' = strip_arch a).
  { intros j a' Hj. rewrite strip_arch_at in Hj. destruct (arch_at w j) as [a|]; [|discriminate]. inversion Hj. eauto. }
  assert (Hbw : forall j a, arch_at w j = Some a -> arch_at (strip cidx w) j = Some (strip_arch a)).
  { intros j a Hj. now rewrite strip_arch_at, Hj. }
  split; [|split].
  - destruct Hst as (Hsm & Hl & Hrr). split; [exact Hsm|]. split.
    + intros e ai row He. change (w_ents (strip cidx w)) with (w_ents w) in He. destruct (Hl _ _ _ He) as (a & vals & Ha & Hn).
      exists (strip_arch a), vals. split; [now apply Hbw|exact Hn].
    + intros ai a' row e vals Ha' Hn. destruct (Hfw _ _ Ha') as (a & Ha & ->). exact (Hrr _ _ _ _ _ Ha Hn).
  - split; [|split; [|split; [|split; [|split]]]].
    + destruct Hs as (c & Hc & Hnd). exists c. split; [|exact Hnd]. unfold strip. cbn [w_archs set_archs sl_entries sl_next]. now apply schain_strip.
    + intros ai a' Ha'. destruct (Hfw _ _ Ha') as (a & Ha & ->). exact (Hb1 _ _ Ha).
    + intros cs ai Hlk. change (aby_lookup (strip cidx w) cs) with (aby_lookup w cs) in Hlk. destruct (Hb2 _ _ Hlk) as (a & Ha & Hcs).
      exists (strip_arch a). split; [now apply Hbw|exact Hcs].
    + intros ai a' c d Ha' Hlk. destruct (Hfw _ _ Ha') as (a & Ha & ->). cbn [strip_arch a_ins a_comps set_edges] in *.
      destruct (N.eq_dec c cidx) as [->|Hne]; [rewrite alookup_aremove_eq in Hlk; discriminate|].
      rewrite alookup_aremove_neq in Hlk by exact Hne. destruct (Hi _ _ _ _ Ha Hlk) as [Hn Ht]. split; [exact Hn|].
      destruct (Ht Hne (Hno _ _ Ha)) as (b & Hb & Hcb). exists (strip_arch b). split; [now apply Hbw|exact Hcb].
    + intros ai a' c d Ha' Hlk. destruct (Hfw _ _ Ha') as (a & Ha & ->). cbn [strip_arch a_rem a_comps set_edges] in *.
      destruct (N.eq_dec c cidx) as [->|Hne]; [rewrite alookup_aremove_eq in Hlk; discriminate|].
      rewrite alookup_aremove_neq in Hlk by exact Hne. destruct (Hr _ _ _ _ Ha Hlk) as [Hn Ht]. split; [exact Hn|].
      destruct (Ht (Hno _ _ Ha)) as (b & Hb & Hcb). exists (strip_arch b). split; [now apply Hbw|exact Hcb].
    + intros ai a' Ha'. destruct (Hfw _ _ Ha') as (a & Ha & ->). exact (Hso _ _ Ha).
  - exact H0.
Qed.

(* what every step keeps, and the sweep, the whole removal keeps *)
Lemma arc_keeps (P : world -> Prop) :
  (forall w ai a D, slab_get (w_archs w) ai = Some a -> P w ->
     P (set_ents (set_drops (rc_core cidx w ai a) (w_drops w ++ D)) (remove_keys (map fst (a_rows a)) (w_ents w)))) ->
  (forall w, P w -> P (strip cidx w)) -> forall l w, P w -> P (archs_remove_component w cidx ctag l).
Proof.
  intros Hs Hf l w HP. rewrite archs_remove_component_unfold. apply Hf, fold_left_invariant; [exact HP|].
  intros w0 ai H0. apply rc_step_cases; [now intros _|]. intros a D Ha. now apply Hs.
Qed.
Lemma arc_pres {T} (pi : world -> T) :
  (forall w ai a D, pi (set_ents (set_drops (rc_core cidx w ai a) (w_drops w ++ D)) (remove_keys (map fst (a_rows a)) (w_ents w))) = pi w) ->
  (forall w, pi (strip cidx w) = pi w) -> forall l w, pi (archs_remove_component w cidx ctag l) = pi w.
Proof. intros Hs Hf l w. apply (arc_keeps (fun w' => pi w' = pi w)); [intros w0 ai a D _ <-; apply Hs|intros w0 <-; apply Hf|reflexivity]. Qed.

(* C14 / C17: the archetype side of World::remove_component *)
Theorem archs_remove_component_ok w member_of :
  WInv w -> NoDup member_of ->
  (forall ai a, arch_at w ai = Some a -> (In ai member_of <-> In cidx (a_comps a))) ->
  let w' := archs_remove_component w cidx ctag member_of in
  WInv w' /\
  (* exactly the archetypes without the component survive, with their rows *)
  (forall j, arch_at w' j = match arch_at w j with
                            | Some a => if existsb (N.eqb cidx) (a_comps a) then None else Some (strip_arch a)
                            | None => None end) /\
  (* no transition mentions the component *)
  (forall j a, arch_at w' j = Some a -> alookup cidx (a_ins a) = None /\ alookup cidx (a_rem a) = None) /\
  (* the entities stored in the removed archetypes are gone, everything else is untouched *)
  (forall k, In k (removed_rows w member_of) -> sm_get k (w_ents w') = None) /\
  (forall k, ~ In k (removed_rows w member_of) -> sm_get k (w_ents w') = sm_get k (w_ents w) /\ forall c, abs w' k c = abs w k c).
Proof.
  intros HW Hnd Hmem. cbn zeta. rewrite archs_remove_component_unfold.
  assert (Hin : forall ai a, In ai member_of -> arch_at w ai = Some a -> has_c cidx a) by (intros ai a Hi Ha; now apply (Hmem ai a Ha)).
  pose proof (fold_J member_of w (WInv_J cidx w HW) Hin) as HJ1. pose proof (fun j => rc_fold_arch_at member_of j w) as Hat1.
  pose proof (rc_fold_ents member_of Hnd w) as He1. pose proof HW as ((Hsm & _) & _).
  set (w1 := fold_left (rc_step cidx ctag) member_of w) in *.
  assert (Hex : forall j a, arch_at w j = Some a -> existsb (N.eqb j) member_of = existsb (N.eqb cidx) (a_comps a)).
  { intros j a Ha. exact (eq_true_iff_eq _ _ (iff_trans (smem_in j member_of) (iff_trans (Hmem j a Ha) (iff_sym (smem_in cidx (a_comps a)))))). }
  assert (Hget : forall k, sm_get k (w_ents (strip cidx w1)) = if in_dec key_eq_dec k (removed_rows w member_of) then None else sm_get k (w_ents w)).
  { intros k. change (w_ents (strip cidx w1)) with (w_ents w1). rewrite He1. now apply remove_keys_get. }
  split; [apply J_strip; [exact HJ1|apply rc_fold_clean; intros ai a Ha; apply (Hmem ai a Ha)]|]. split; [|split; [|split]].
  - intros j. rewrite strip_arch_at, Hat1. destruct (arch_at w j) as [a|] eqn:Ha; [|now destruct (existsb _ member_of)].
    rewrite (Hex j a Ha). now destruct (existsb _ (a_comps a)).
  - intros j a Ha. rewrite strip_arch_at in Ha. destruct (arch_at w1 j) as [a1|]; [|discriminate]. inversion Ha; subst a.
    cbn [strip_arch a_ins a_rem set_edges]. split; apply alookup_aremove_eq.
  - intros k Hk. rewrite Hget. now destruct (in_dec key_eq_dec k (removed_rows w member_of)).
  - intros k Hk. assert (Eg : sm_get k (w_ents (strip cidx w1)) = sm_get k (w_ents w)) by (rewrite Hget; now destruct (in_dec key_eq_dec k (removed_rows w member_of))).
    split; [exact Eg|]. intros c. rewrite abs_strip. exact (rc_fold_abs member_of w (proj1 HW) Hnd k c Hk).
Qed.
End Whole.
