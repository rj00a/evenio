(* Layer.v : what it takes to carry an invariant through every call of the model.
   A call is a chain of binds over the places where the world really changes.  The relation [place] has one constructor
   for each of eight: a quiet change (ledger, log, harness state, reservation cursor), the four registry entries (global
   event, component, targeted event, handler) and three removals (handler, global event, targeted event).  Two stand
   apart: a propagation ([flush], the field [l_flush]) and the exit of a component with its archetypes ([comp_exit_ok],
   whose proof needs RemoveComp.v).  A [Layer] is an invariant kept by every place and by a propagation; from a [Layer]
   every call gets its triple (section Calls).
   One level down, the rules for a single delivery and a whole propagation are WorldFrame.v's. *)
From Coq Require Import List NArith Bool.
Import ListNotations.
Require Import EV.Base EV.ListN EV.Access EV.Query EV.QueryInd EV.SlotMap EV.Reserve EV.HList EV.Loop EV.World EV.ArchProofs EV.WorldFrame EV.Register.
Open Scope N_scope.

Definition gev_entry_world (w : world) (tag : N) (k : key) (m : smap einfo) : world :=
  let w1 := set_gev w m (ainsert tag k (w_gby w)) in
  set_glists w1 (nrepeat_to (w_glists w1) (N.to_nat (fst k) + 1) hl_new).
Definition comp_entry_world (w : world) (tag : N) (k : key) (m : smap cinfo) : world :=
  set_comps w m (ainsert tag k (w_cby w)).
Definition tev_exit_world (w : world) (k : key) (info : einfo) (m : smap einfo) : world :=
  let w3 := set_tev w m (aremove (e_tag info) (w_tby w)) in
  match e_kind info with
  | KInsert c => set_comps w3 (upd_by_index (w_comps w3) c (fun ci => mkC (c_tag ci) (c_member_of ci) (filter (fun x => negb (key_eqb x k)) (c_ins ci)) (c_rem ci))) (w_cby w3)
  | KRemove c => set_comps w3 (upd_by_index (w_comps w3) c (fun ci => mkC (c_tag ci) (c_member_of ci) (c_ins ci) (filter (fun x => negb (key_eqb x k)) (c_rem ci)))) (w_cby w3)
  | _ => w3 end.
Definition comp_exit_world (w : world) (k : key) (ci : cinfo) (m : smap cinfo) : world :=
  refresh_cursor (archs_remove_component (set_comps w m (aremove (c_tag ci) (w_cby w))) (fst k) (c_tag ci) (c_member_of ci)).

(* validation and registration of a handler whose parameters have been initialised: add_handler between
   [init_params] and the AddHandler notification *)
Definition handler_entry (sh : hshape) (c : hconfig) (w1 : world) : fail + key * world :=
  match cf_recv c, cf_access c with
  | RcNone, _ | RcInvalid, _ => inl (FPanic 1)
  | _, None => inl (FPanic 1)
  | RcOk rv, Some acc =>
      match handler_conflicts (cf_cas c) with
      | _ :: _ => inl (FPanic 1)
      | [] =>
          let order := w_hctr w1 in
          match insert_with (fun k => mkH k order (sh_tid sh) rv (match acc with AcReadWrite => true | _ => false end)
                                        (cf_filter c) (cf_sg c) (cf_st c) (fold_left ca_or (cf_cas c) ca_false) (cf_refs c) (sh_prio sh)
                                        (cf_params c) (sh_script sh)) (w_hs w1) with
          | None => inl (FPanic 5)
          | Some (k, hs) =>
              let gl := match rv with
                        | RvGlobal ek =>
                            let gl0 := nrepeat_to (w_glists w1) (N.to_nat (fst ek) + 1) hl_new in
                            match nget gl0 (fst ek) with
                            | Some l => nset gl0 (fst ek) (hl_insert l k (sh_prio sh))
                            | None => gl0 end
                        | RvTargeted _ => w_glists w1 end in
              let hby := match sh_tid sh with Some t => ainsert t k (w_hby w1) | None => w_hby w1 end in
              inr (k, archs_register_handler (set_hreg w1 hs gl hby (order + 1) (w_horder w1 ++ [(order, k)])) k)
          end
      end
  end.

(* the four ways [init_param] extends the configuration *)
Definition cfg_recv_g (c : hconfig) (k : key) (m : bool) : hconfig :=
  mkCfg (cfg_set_recv c (RvGlobal k)) (cfg_set_access c (if m then AcReadWrite else AcRead))
        (cf_filter c) (cf_sg c) (cf_st c) (cf_cas c) (cf_refs c) (cf_params c ++ [RRecvG m]).
Definition cfg_recv_t (c : hconfig) (k : key) (m : bool) (q' : query) : hconfig :=
  let a := access_of q' in
  mkCfg (cfg_set_recv c (RvTargeted k)) (cfg_set_access c (if m then AcReadWrite else AcRead))
        (match cf_recv c with RcNone => a | _ => ca_and (cf_filter c) a end) (cf_sg c) (cf_st c) (cf_cas c ++ [a])
        (fold_left (fun s x => sinsert x s) (leaves q') (cf_refs c)) (cf_params c ++ [RRecvT m q' []]).
Definition cfg_fetch (c : hconfig) (kd : fkind) (q' : query) : hconfig :=
  mkCfg (cf_recv c) (cf_access c) (cf_filter c) (cf_sg c) (cf_st c) (cf_cas c ++ [access_of q'])
        (fold_left (fun s x => sinsert x s) (leaves q') (cf_refs c)) (cf_params c ++ [RFetch kd q' []]).
Definition cfg_sender (c : hconfig) (r : list (bool * N * N)) : hconfig :=
  let g := flat_map (fun x : bool * N * N => if fst (fst x) then [] else [(snd (fst x), snd x)]) r in
  let t := flat_map (fun x : bool * N * N => if fst (fst x) then [(snd (fst x), snd x)] else []) r in
  mkCfg (cf_recv c) (cf_access c) (cf_filter c)
        (fold_left (fun s x => sinsert (snd x) s) g (cf_sg c)) (fold_left (fun s x => sinsert (snd x) s) t (cf_st c))
        (cf_cas c) (cf_refs c) (cf_params c ++ [RSender g t]).

Section Unfold.
Variable beh : hinfo -> logent -> N -> script.

Lemma add_global_event_unfold f tag w : add_global_event beh (S f) tag w =
  match alookup tag (w_gby w) with
  | Some k => ROk k w
  | None =>
      match insert_with (fun _ => mkE tag (gkind tag)) (w_gev w) with
      | None => RFail (FPanic 5) w
      | Some (k, m) => do (_, w3) <- send_global beh f G_ADDGE (mkEv 0 0 k) (gev_entry_world w tag k m); ROk k w3
      end
  end.
Proof. reflexivity. Qed.
Lemma send_global_unfold f tag ev w : send_global beh (S f) tag ev w =
  match add_global_event beh f tag w with
  | RFail e w' => RFail e (ev_drop w' false tag ev)
  | ROk k w1 => flush beh [mkQ false (fst k) KEY_NULL ev] (if (10 <? tag) then note w1 tag (ev_id ev) else w1)
  end.
Proof. reflexivity. Qed.

Lemma gev_frame {T} (pi : world -> T) :
  (forall q w, pi (res_world (flush beh q w)) = pi w) -> (forall w t tag ev, pi (ev_drop w t tag ev) = pi w) ->
  (forall w tag id, pi (note w tag id) = pi w) -> (forall w tag k m, pi (gev_entry_world w tag k m) = pi w) ->
  forall fuel tag w, pi (res_world (add_global_event beh fuel tag w)) = pi w /\ forall ev, pi (res_world (send_global beh fuel tag ev w)) = pi w.
Proof.
  intros Hf Hd Hn He. induction fuel as [|f IH]; intros tag w; [split; reflexivity|].
  assert (Hadd : pi (res_world (add_global_event beh (S f) tag w)) = pi w).
  { rewrite add_global_event_unfold. destruct (alookup tag (w_gby w)); [reflexivity|].
    destruct (insert_with (fun _ => mkE tag (gkind tag)) (w_gev w)) as [[k m]|]; [|reflexivity].
    destruct (IH G_ADDGE (gev_entry_world w tag k m)) as [_ Hs]. specialize (Hs (mkEv 0 0 k)). rewrite He in Hs.
    destruct (send_global beh f G_ADDGE (mkEv 0 0 k) (gev_entry_world w tag k m)); exact Hs. }
  split; [exact Hadd|]. intros ev. rewrite send_global_unfold. destruct (IH tag w) as [Ha _].
  destruct (add_global_event beh f tag w) as [k w1|e w1]; cbn [res_world] in *; [|now rewrite Hd].
  rewrite Hf. destruct (10 <? tag); [now rewrite Hn|exact Ha].
Qed.

(* E::init of a targeted event: Insert / Remove events register their component first *)
Definition tev_stage1 (tag : N) (w : world) : res ekind :=
  if (20 <=? tag) && (tag <? 40) then do (c, w') <- add_component beh (tag - 20) w; ROk (KInsert (fst c)) w'
  else if (40 <=? tag) && (tag <? 60) then do (c, w') <- add_component beh (tag - 40) w; ROk (KRemove (fst c)) w'
  else if tag =? T_DESPAWN then ROk KDespawn w else ROk KNormal w.

Lemma init_param_eq p c w : init_param beh p c w =
  match p with
  | PRecvG tag m => do (k, w1) <- add_global_event beh RFUEL tag w; ROk (cfg_recv_g c k m) w1
  | PRecvT tag m q => do (k, w1) <- add_targeted_event beh tag w; do (q', w2) <- resolve_query beh q w1; ROk (cfg_recv_t c k m q') w2
  | PFetch kd q => do (q', w1) <- resolve_query beh q w; ROk (cfg_fetch c kd q') w1
  | PSender evs => do (r, w1) <- register_set beh evs w; ROk (cfg_sender c r) w1
  end.
Proof. destruct p; reflexivity. Qed.

Lemma init_params_cfg (P : hconfig -> Prop) :
  (forall c k m, P c -> P (cfg_recv_g c k m)) -> (forall c k m q', P c -> P (cfg_recv_t c k m q')) ->
  (forall c kd q', P c -> P (cfg_fetch c kd q')) -> (forall c r, P c -> P (cfg_sender c r)) ->
  forall ps c w, P c -> match init_params beh ps c w with ROk c' _ => P c' | RFail _ _ => True end.
Proof.
  intros Hg Ht Hf Hs. induction ps as [|p t IH]; intros c w HC; cbn [init_params]; [exact HC|]. rewrite init_param_eq.
  destruct p as [tag m|tag m q|kd q|evs].
  - destruct (add_global_event beh RFUEL tag w) as [k w1|f w1]; cbn [rbind]; [apply IH; auto|exact I].
  - destruct (add_targeted_event beh tag w) as [k w1|f w1]; cbn [rbind]; [|exact I].
    destruct (resolve_query beh q w1) as [q' w2|f w2]; cbn [rbind]; [apply IH; auto|exact I].
  - destruct (resolve_query beh q w) as [q' w1|f w1]; cbn [rbind]; [apply IH; auto|exact I].
  - destruct (register_set beh evs w) as [r w1|f w1]; cbn [rbind]; [apply IH; auto|exact I].
Qed.

Lemma add_handler_eq sh w : add_handler beh sh w =
  match (match sh_tid sh with Some t => alookup t (w_hby w) | None => None end) with
  | Some k => ROk k w
  | None =>
      do (c, w1) <- init_params beh (sh_params sh) cfg0 w;
      match handler_entry sh c w1 with
      | inl f => RFail f w1
      | inr (k, w3) => do (_, w4) <- send_global beh RFUEL G_ADDH (mkEv 0 0 k) w3; ROk k w4
      end
  end.
Proof.
  unfold add_handler, handler_entry. destruct (match sh_tid sh with Some t => alookup t (w_hby w) | None => None end); [reflexivity|].
  destruct (init_params beh (sh_params sh) cfg0 w) as [c w1|f w1]; [|reflexivity]. cbn [rbind].
  destruct (cf_recv c); try reflexivity. destruct (cf_access c); [|reflexivity]. destruct (handler_conflicts (cf_cas c)); [|reflexivity].
  cbn zeta. destruct (insert_with _ (w_hs w1)) as [[k hs]|]; reflexivity.
Qed.
End Unfold.

Lemma handler_entry_inv sh c w1 k w3 : handler_entry sh c w1 = inr (k, w3) ->
  exists rv acc hs, cf_recv c = RcOk rv /\ cf_access c = Some acc /\
    insert_with (fun k => mkH k (w_hctr w1) (sh_tid sh) rv (match acc with AcReadWrite => true | _ => false end)
                            (cf_filter c) (cf_sg c) (cf_st c) (fold_left ca_or (cf_cas c) ca_false) (cf_refs c) (sh_prio sh)
                            (cf_params c) (sh_script sh)) (w_hs w1) = Some (k, hs) /\
    w3 = archs_register_handler
           (set_hreg w1 hs
              (match rv with
               | RvGlobal ek =>
                   let gl0 := nrepeat_to (w_glists w1) (N.to_nat (fst ek) + 1) hl_new in
                   match nget gl0 (fst ek) with
                   | Some l => nset gl0 (fst ek) (hl_insert l k (sh_prio sh))
                   | None => gl0 end
               | RvTargeted _ => w_glists w1 end)
              (match sh_tid sh with Some t => ainsert t k (w_hby w1) | None => w_hby w1 end)
              (w_hctr w1 + 1) (w_horder w1 ++ [(w_hctr w1, k)])) k.
Proof.
  unfold handler_entry. destruct (cf_recv c) as [|rv|]; try discriminate. destruct (cf_access c) as [acc|]; [|discriminate].
  destruct (handler_conflicts (cf_cas c)); [|discriminate]. cbn zeta. intros H. exists rv, acc.
  destruct (insert_with _ (w_hs w1)) as [[k0 hs]|]; [|discriminate]. inversion H; subst k0 w3. exists hs. repeat split.
Qed.

Lemma handlers_remove_inv w k h w2 : handlers_remove w k = Some (h, w2) ->
  exists hs, sm_remove k (w_hs w) = Some (h, hs) /\
    w2 = set_hreg w hs
           (match h_recv h with
            | RvGlobal ek => match nget (w_glists w) (fst ek) with
                             | Some l => nset (w_glists w) (fst ek) (hl_remove key_eqb l k)
                             | None => w_glists w end
            | RvTargeted _ => w_glists w end)
           (match h_tid h with Some t => aremove t (w_hby w) | None => w_hby w end)
           (w_hctr w) (filter (fun p => negb (fst p =? h_order h)) (w_horder w)).
Proof. unfold handlers_remove. destruct (sm_remove k (w_hs w)) as [[h1 hs]|]; [|discriminate]. intros E. inversion E; subst. now exists hs. Qed.

Lemma reserve_ok w k w' : reserve w = ROk k w' -> exists i, w' = set_res w i (w_rcnt w + 1).
Proof. unfold reserve. destruct (nki_next (w_rcur w) (w_ents w)) as [[[k0|] i]|]; intros H; inversion H. eauto. Qed.

(* the kind [tev_stage1] returns for a tag names the component that the by-type map holds for it *)
Definition kind_from (w : world) (tag : N) (kind : ekind) : Prop :=
  match kind with
  | KInsert c => exists k, fst k = c /\ alookup (tag - 20) (w_cby w) = Some k
  | KRemove c => exists k, fst k = c /\ alookup (tag - 40) (w_cby w) = Some k
  | _ => True
  end.
Definition tev_kind (tag : N) (kind : ekind) : Prop :=
  match kind with
  | KInsert _ => 20 <= tag /\ tag < 40
  | KRemove _ => 40 <= tag /\ tag < 60
  | KDespawn => tag = T_DESPAWN
  | KSpawn => False
  | KNormal => True
  end.
(* the by-type maps only grow along registration and sending; what a registration returns is what they hold *)
Definition bys (w : world) := (w_cby w, w_gby w, w_tby w).
Definition by_le (w' w : world) : Prop :=
  (forall t k, alookup t (w_cby w) = Some k -> alookup t (w_cby w') = Some k) /\
  (forall t k, alookup t (w_gby w) = Some k -> alookup t (w_gby w') = Some k) /\
  (forall t k, alookup t (w_tby w) = Some k -> alookup t (w_tby w') = Some k).
Lemma by_le_refl w : by_le w w. Proof. now repeat split. Qed.
Lemma by_le_trans w2 w1 w : by_le w2 w1 -> by_le w1 w -> by_le w2 w.
Proof. intros (A1 & A2 & A3) (B1 & B2 & B3). repeat split; auto. Qed.
Lemma by_le_eq w' w : bys w' = bys w -> by_le w' w.
Proof. unfold bys, by_le. intros E. injection E as -> -> ->. now repeat split. Qed.
Lemma by_le_quiet w w' : quiet w w' -> by_le w' w.
Proof. unfold quiet, structureL, registries. intros [A B]. apply by_le_eq. unfold bys. injection A as _ _ _ _ _ -> _ _ _ _ _. injection B as _ -> _ -> _. reflexivity. Qed.
Lemma alookup_ainsert_old {V} tag (k0 : V) l t k : alookup tag l = None -> alookup t l = Some k -> alookup t (ainsert tag k0 l) = Some k.
Proof. intros Hn H. rewrite alookup_ainsert_neq; [exact H|]. intros ->. congruence. Qed.

(* an entry (targeted?, tag, index) of the list [register_set] returns *)
Definition registered (w : world) (x : bool * N * N) : Prop :=
  exists k, fst k = snd x /\ alookup (snd (fst x)) (if fst (fst x) then w_tby w else w_gby w) = Some k.
Lemma registered_le w' w x : by_le w' w -> registered w x -> registered w' x.
Proof. intros (_ & G & T) (k & A & B). exists k. split; [exact A|]. destruct (fst (fst x)); auto. Qed.

Definition queued (w : world) (x : qitem) : Prop :=
  exists tag k, fst k = qi_idx x /\ alookup tag (if qi_targeted x then w_tby w else w_gby w) = Some k.

(* a handler configuration under construction: every event its Sender parameters name is registered and recorded in
   the sent-sets, and so is its receiver *)
Definition cfg_known (c : hconfig) (w : world) : Prop :=
  (forall g t, In (RSender g t) (cf_params c) ->
     (forall tag i, In (tag, i) g -> smem i (cf_sg c) = true /\ registered w (false, tag, i)) /\
     (forall tag i, In (tag, i) t -> smem i (cf_st c) = true /\ registered w (true, tag, i))) /\
  match cf_recv c with
  | RcOk (RvGlobal ek) => exists tag, alookup tag (w_gby w) = Some ek
  | RcOk (RvTargeted ek) => exists tag, alookup tag (w_tby w) = Some ek
  | _ => True end.
Lemma cfg_known_le c w' w : by_le w' w -> cfg_known c w -> cfg_known c w'.
Proof.
  intros Hle [A B]. split.
  - intros g t Hin. destruct (A g t Hin) as [Ag At]. split; intros tag i X; [destruct (Ag tag i X)|destruct (At tag i X)]; eauto using registered_le.
  - destruct Hle as (_ & G & T). destruct (cf_recv c) as [|[ek|ek]|]; try exact I; destruct B as [tag B]; eauto.
Qed.
Lemma cfg_known0 w : cfg_known cfg0 w.
Proof. split; [intros g t []|exact I]. Qed.
Lemma cfg_known_snoc c p r a f cas refs w : (forall g t, p <> RSender g t) -> cfg_known c w ->
  match r with
  | RcOk (RvGlobal ek) => exists tag, alookup tag (w_gby w) = Some ek
  | RcOk (RvTargeted ek) => exists tag, alookup tag (w_tby w) = Some ek
  | _ => True end ->
  cfg_known (mkCfg r a f (cf_sg c) (cf_st c) cas refs (cf_params c ++ [p])) w.
Proof. intros Hp [A _] B. split; [|exact B]. intros g t Hin. cbn [cf_params] in Hin. apply in_app_or in Hin as [Hin|[X|[]]]; [exact (A g t Hin)|destruct (Hp g t X)]. Qed.
Lemma cfg_set_recv_known c rv w :
  match rv with RvGlobal ek => exists tag, alookup tag (w_gby w) = Some ek | RvTargeted ek => exists tag, alookup tag (w_tby w) = Some ek end ->
  match cfg_set_recv c rv with
  | RcOk (RvGlobal ek) => exists tag, alookup tag (w_gby w) = Some ek
  | RcOk (RvTargeted ek) => exists tag, alookup tag (w_tby w) = Some ek
  | _ => True end.
Proof. intros H. unfold cfg_set_recv. destruct (cf_recv c) as [|old|]; [exact H| |exact I]. destruct (recvid_eqb old rv); [exact H|exact I]. Qed.
Lemma cfg_known_recv_g c w tag k m : cfg_known c w -> alookup tag (w_gby w) = Some k -> cfg_known (cfg_recv_g c k m) w.
Proof. intros HC Hk. apply cfg_known_snoc; [discriminate|exact HC|]. apply cfg_set_recv_known. now exists tag. Qed.
Lemma cfg_known_recv_t c w tag k m q' : cfg_known c w -> alookup tag (w_tby w) = Some k -> cfg_known (cfg_recv_t c k m q') w.
Proof. intros HC Hk. apply cfg_known_snoc; [discriminate|exact HC|]. apply cfg_set_recv_known. now exists tag. Qed.
Lemma cfg_known_fetch c w kd q' : cfg_known c w -> cfg_known (cfg_fetch c kd q') w.
Proof. intros HC. apply cfg_known_snoc; [discriminate|exact HC|exact (proj2 HC)]. Qed.
Lemma cfg_known_sender c w r : cfg_known c w -> Forall (registered w) r -> cfg_known (cfg_sender c r) w.
Proof.
  intros [HC HR] Hr. split; [|exact HR]. rewrite Forall_forall in Hr. intros g t Hin. cbn [cfg_sender cf_params cf_sg cf_st] in *.
  apply in_app_or in Hin as [Hin|[X|[]]].
  - destruct (HC g t Hin) as [A B]. split; intros tag i X; [destruct (A tag i X) as [A1 A2]|destruct (B tag i X) as [A1 A2]]; (split; [|exact A2]); apply smem_fold_sinsert; now left.
  - inversion X; subst g t. clear X. split; intros tag i X; pose proof X as X0; apply in_flat_map in X as ([[tt tg] idx] & Hx & Hi); cbn [fst snd] in Hi;
      [destruct tt; [destruct Hi|]|destruct tt; [|destruct Hi]]; destruct Hi as [Hi|[]]; inversion Hi; subst tg idx;
      (split; [apply smem_fold_sinsert; right; apply in_map_iff; exists (tag, i); now split|exact (Hr _ Hx)]).
Qed.

(* the handlers World::remove_*_event and World::remove_component remove first, and the Despawn events the latter sends *)
Definition gev_users (k : key) (w : world) : list key :=
  map h_key (filter (fun h => recvid_eqb (h_recv h) (RvGlobal k) || smem (fst k) (h_sent_g h)) (handlers_in_order w)).
Definition tev_users (k : key) (w : world) : list key :=
  map h_key (filter (fun h => recvid_eqb (h_recv h) (RvTargeted k) || smem (fst k) (h_sent_t h)) (handlers_in_order w)).
Definition comp_users (k : key) (w : world) : list key :=
  map h_key (filter (fun h => smem (fst k) (h_refcomps h)) (handlers_in_order w)).
Definition despawn_queue (k dk : key) (w : world) : list qitem :=
  flat_map (fun '(_, a) => if arch_has a (fst k) then map (fun '(e, _) => mkQ true (fst dk) e (mkEv 0 0 KEY_NULL)) (a_rows a) else [])
           (slab_iter (w_archs w)).
Lemma despawn_queued k dk w : alookup T_DESPAWN (w_tby w) = Some dk -> forall x, In x (despawn_queue k dk w) -> queued w x.
Proof.
  intros R x Hx. apply in_flat_map in Hx as ([ai a] & _ & Hx). destruct (arch_has a (fst k)); [|destruct Hx].
  apply in_map_iff in Hx as ([e vals] & <- & _). exists T_DESPAWN, dk. exact (conj eq_refl R).
Qed.

Lemma quiet_ev_drop w t tag ev : quiet w (ev_drop w t tag ev).
Proof. split; [apply sl_ev_drop|apply (r_ev_drop registries); fr]. Qed.
Lemma quiet_note w tag id : quiet w (note w tag id).
Proof. now split. Qed.
Lemma quiet_set_h w h : quiet w (set_h w h).
Proof. now split. Qed.
Lemma quiet_reserve w k w' : reserve w = ROk k w' -> quiet w w'.
Proof. intros E. destruct (reserve_ok w k w' E) as [i ->]. now split. Qed.

(* The places, other than a propagation, where a call changes the world: a trivial update, the four registry entries
   before they are announced, the three removals.  [P] holds in the worlds a removal has been through; the flag tells
   the places of registration and sending, along which the order of a layer holds, from the removals. *)
Inductive place {beh : hinfo -> logent -> N -> script} {P : world -> Prop} : bool -> world -> world -> Prop :=
| p_quiet w w' : quiet w w' -> place true w w'
| p_gev_entry w tag k m : alookup tag (w_gby w) = None -> insert_with (fun _ => mkE tag (gkind tag)) (w_gev w) = Some (k, m) ->
    place true w (gev_entry_world w tag k m)
| p_comp_entry w tag k m : alookup tag (w_cby w) = None -> insert_with (fun _ => mkC tag [] [] []) (w_comps w) = Some (k, m) ->
    place true w (comp_entry_world w tag k m)
| p_tev_entry w0 tag kind k m : kind_from w0 tag kind -> tev_kind tag kind -> alookup tag (w_tby w0) = None ->
    insert_with (fun _ => mkE tag kind) (w_tev w0) = Some (k, m) ->
    place true w0
      (let w1 := set_tev w0 m (ainsert tag k (w_tby w0)) in
       match kind with
       | KInsert c => set_comps w1 (upd_by_index (w_comps w1) c (fun ci => mkC (c_tag ci) (c_member_of ci) (c_ins ci ++ [k]) (c_rem ci))) (w_cby w1)
       | KRemove c => set_comps w1 (upd_by_index (w_comps w1) c (fun ci => mkC (c_tag ci) (c_member_of ci) (c_ins ci) (c_rem ci ++ [k]))) (w_cby w1)
       | _ => w1 end)
| p_handler_entry sh w c w1 k w3 : cfg_known c w1 -> init_params beh (sh_params sh) cfg0 w = ROk c w1 ->
    handler_entry sh c w1 = inr (k, w3) -> place true w1 w3
| p_handler_exit w1 k h w2 : handlers_remove w1 k = Some (h, w2) -> place false w1 (archs_remove_handler w2 h)
| p_gev_exit k w w1 w2 info m : P w -> send_global beh RFUEL G_RMGE (mkEv 0 0 k) w = ROk tt w1 -> P w1 ->
    remove_handlers beh (gev_users k w1) w1 = ROk tt w2 -> sm_remove k (w_gev w2) = Some (info, m) ->
    place false w2 (set_gev w2 m (aremove (e_tag info) (w_gby w2)))
| p_tev_exit k w w1 w2 info m : P w -> send_global beh RFUEL G_RMTE (mkEv 0 0 k) w = ROk tt w1 -> P w1 ->
    remove_handlers beh (tev_users k w1) w1 = ROk tt w2 -> sm_remove k (w_tev w2) = Some (info, m) ->
    place false w2 (tev_exit_world w2 k info m).
Arguments place : clear implicits.

Lemma place_mono {beh} {P P' : world -> Prop} {b w w'} : (forall w, P w -> P' w) -> place beh P b w w' -> place beh P' b w w'.
Proof. intros H Hp. destruct Hp; eauto using place. Qed.

(* A layer over [K]: an invariant [lJ] which every place and every propagation keep, given that [K] holds before and
   after.  Layers are stacked ([stack]): the upper one is a layer over the invariants below it. *)
Record Layer {beh : hinfo -> logent -> N -> script} {K : world -> Prop} := {
  lJ : world -> Prop;
  lle : world -> world -> Prop;         (* [lle w' w]: w' comes after w along registration and sending *)
  lE : fail -> Prop;                    (* how a call may fail *)

  l_refl : forall w, lle w w;
  l_trans : forall w2 w1 w, lle w2 w1 -> lle w1 w -> lle w2 w;
  l_panic : forall n, lE (FPanic n);

  l_place : forall b w w', place beh (fun w => K w /\ lJ w) b w w' -> K w -> lJ w -> K w' -> lJ w' /\ (if b then lle w' w else True);
  l_flush : forall q w, K w -> lJ w -> (forall x, In x q -> queued w x) -> K (res_world (flush beh q w)) ->
    lJ (res_world (flush beh q w)) /\ lle (res_world (flush beh q w)) w /\ match flush beh q w with RFail f _ => lE f | ROk _ _ => True end
}.
Arguments Layer : clear implicits.

Section Layer.
Variable beh : hinfo -> logent -> N -> script.


(* World::remove_component has one more place, stated apart because its proof needs more of the storage invariants than
   the other calls do (RemoveComp.v): the component's exit with the removal of its archetypes *)
Definition comp_exit_ok {K : world -> Prop} (L : Layer beh K) : Prop :=
  forall k w w1 dk w2 w3 w4 ci w5 ci' m,
    K w -> lJ L w -> send_global beh RFUEL G_RMC (mkEv 0 0 k) w = ROk tt w1 -> K w1 -> lJ L w1 ->
    add_targeted_event beh T_DESPAWN w1 = ROk dk w2 -> K w2 -> lJ L w2 ->
    flush beh (despawn_queue k dk w2) w2 = ROk tt w3 -> K w3 -> lJ L w3 ->
    remove_handlers beh (comp_users k w3) w3 = ROk tt w4 -> K w4 -> lJ L w4 -> sm_get k (w_comps w4) = Some ci ->
    remove_tevents beh (c_ins ci ++ c_rem ci) w4 = ROk tt w5 -> K w5 -> lJ L w5 -> sm_remove k (w_comps w5) = Some (ci', m) ->
    K (comp_exit_world w5 k ci' m) -> lJ L (comp_exit_world w5 k ci' m).

(* a layer that excludes no failure *)
Definition plain {K : world -> Prop} (P : world -> Prop)
  (Hplace : forall b w w', place beh (fun w => K w /\ P w) b w w' -> K w -> P w -> K w' -> P w')
  (Hflush : forall q w, K w -> P w -> K (res_world (flush beh q w)) -> P (res_world (flush beh q w)))
  : Layer beh K.
Proof.
  refine {| lJ := P; lle := fun _ _ => True; lE := fun _ => True |}; try abstract (intros; exact I).
  - abstract (intros b w w' Hp HK HP HK'; split; [exact (Hplace b w w' Hp HK HP HK')|now destruct b]).
  - abstract (intros q w HK HP _ HK'; split; [now apply Hflush|split; [exact I|now destruct (flush beh q w)]]).
Defined.

(* the conjunction of a layer and a layer over (what follows from) it *)
Definition stack {K K2 : world -> Prop} (L1 : Layer beh K) (L2 : Layer beh K2) (Hk : forall w, K w -> lJ L1 w -> K2 w) : Layer beh K.
Proof.
  refine {| lJ := fun w => lJ L1 w /\ lJ L2 w; lle := fun w' w => lle L1 w' w /\ lle L2 w' w; lE := fun f => lE L1 f /\ lE L2 f |}.
  - abstract (intros w; split; apply l_refl).
  - abstract (intros w2 w1 w [A1 A2] [B1 B2]; split; eapply l_trans; eauto).
  - abstract (intros n; split; apply l_panic).
  - abstract (intros b w w' Hp HK [J1 J2] HK';
      destruct (l_place L1 b w w' (place_mono (fun w0 H => conj (proj1 H) (proj1 (proj2 H))) Hp) HK J1 HK') as [A1 A2];
      destruct (l_place L2 b w w' (place_mono (fun w0 H => conj (Hk _ (proj1 H) (proj1 (proj2 H))) (proj2 (proj2 H))) Hp) (Hk _ HK J1) J2 (Hk _ HK' A1)) as [B1 B2];
      split; [exact (conj A1 B1)|destruct b; [exact (conj A2 B2)|exact I]]).
  - abstract (intros q w HK [J1 J2] HQ HK'; destruct (l_flush L1 q w HK J1 HQ HK') as (A1 & A2 & A3); destruct (l_flush L2 q w (Hk _ HK J1) J2 HQ (Hk _ HK' A1)) as (B1 & B2 & B3); repeat split; try assumption; destruct (flush beh q w); [exact I|now split]).
Defined.

Lemma stack_comp_exit {K K2 : world -> Prop} (L1 : Layer beh K) (L2 : Layer beh K2) (Hk : forall w, K w -> lJ L1 w -> K2 w) :
  comp_exit_ok L1 -> comp_exit_ok L2 -> comp_exit_ok (stack L1 L2 Hk).
Proof.
  intros H1 H2 k w w1 dk w2 w3 w4 ci w5 ci' m HK [J J'] E1 HK1 [J1 J1'] E2 HK2 [J2 J2'] E3 HK3 [J3 J3'] E4 HK4 [J4 J4'] Eg E5 HK5 [J5 J5'] Er HK'.
  pose proof (H1 k w w1 dk w2 w3 w4 ci w5 ci' m HK J E1 HK1 J1 E2 HK2 J2 E3 HK3 J3 E4 HK4 J4 Eg E5 HK5 J5 Er HK') as A1.
  split; [exact A1|]. exact (H2 k w w1 dk w2 w3 w4 ci w5 ci' m (Hk _ HK J) J' E1 (Hk _ HK1 J1) J1' E2 (Hk _ HK2 J2) J2'
    E3 (Hk _ HK3 J3) J3' E4 (Hk _ HK4 J4) J4' Eg E5 (Hk _ HK5 J5) J5' Er (Hk _ HK' A1)).
Qed.

Lemma bys_flush q w : bys (res_world (flush beh q w)) = bys w.
Proof. apply (r_flush bys); fr. Qed.
Lemma by_le_place P b w w' : place beh P b w w' -> if b then by_le w' w else True.
Proof.
  intros [w0 w1 Hq|w0 tag k m El _|w0 tag k m El _|w0 tag kind k m _ _ El _|sh w0 c w1 k w3 _ _ Eh| | |]; try exact I.
  - now apply by_le_quiet.
  - split; [auto|split; [|auto]]. intros t k0. now apply alookup_ainsert_old.
  - split; [|split; auto]. intros t k0. now apply alookup_ainsert_old.
  - destruct kind; (split; [auto|split; [auto|]]; intros t k0; now apply alookup_ainsert_old).
  - apply by_le_eq. destruct (handler_entry_inv sh c w1 k w3 Eh) as (rv & acc & hs & _ & _ & _ & ->). now rewrite (archs_register_handler_frame bys).
Qed.

Section Calls.
Variable L : Layer beh (fun _ => True).
Notation J := (lJ L). Notation E := (lE L).
Definition tle (w' w : world) : Prop := lle L w' w /\ by_le w' w.
Lemma tle_refl w : tle w w. Proof. split; [apply l_refl|apply by_le_refl]. Qed.
Lemma tle_trans w2 w1 w : tle w2 w1 -> tle w1 w -> tle w2 w.
Proof. intros [A1 A2] [B1 B2]. split; [exact (l_trans L _ _ _ A1 B1)|exact (by_le_trans _ _ _ A2 B2)]. Qed.

(* for registration and sending; [Q] is what is known of the value returned *)
Definition tri {A} (w : world) (r : res A) (Q : A -> world -> Prop) : Prop :=
  match r with
  | ROk a w' => J w' /\ tle w' w /\ Q a w'
  | RFail f w' => J w' /\ tle w' w /\ E f
  end.
(* for the removals, along which [tle] does not hold *)
Definition keeps {A} (r : res A) : Prop := J (res_world r) /\ match r with RFail f _ => E f | ROk _ _ => True end.

Lemma tri_ok {A} (a : A) w w' (Q : A -> world -> Prop) : J w' -> tle w' w -> Q a w' -> tri w (ROk a w') Q.
Proof. now split. Qed.
Lemma tri_fail {A} n w w' (Q : A -> world -> Prop) : J w' -> tle w' w -> tri w (RFail (FPanic n) w') Q.
Proof. intros. split; [assumption|split; [assumption|apply l_panic]]. Qed.
Lemma tri_bind {A B} (r : res A) (f : A -> world -> res B) w Q1 Q2 :
  tri w r Q1 -> (forall a w1, J w1 -> tle w1 w -> Q1 a w1 -> tri w1 (f a w1) Q2) -> tri w (rbind r f) Q2.
Proof.
  intros H Hf. destruct r as [a w1|e w1]; cbn [rbind]; [|exact H]. destruct H as (H1 & H2 & H3).
  specialize (Hf a w1 H1 H2 H3). destruct (f a w1) as [b w2|e w2]; destruct Hf as (A1 & A2 & A3);
    (split; [exact A1|split; [exact (tle_trans _ _ _ A2 H2)|exact A3]]).
Qed.
Lemma tri_weaken {A} (r : res A) w (Q1 Q2 : A -> world -> Prop) :
  (forall a w', J w' -> tle w' w -> Q1 a w' -> Q2 a w') -> tri w r Q1 -> tri w r Q2.
Proof. intros H. destruct r; [|exact (fun x => x)]. intros (A1 & A2 & A3). split; [exact A1|split; [exact A2|now apply H]]. Qed.
Lemma tri_J {A} (r : res A) w Q : tri w r Q -> J (res_world r) /\ tle (res_world r) w.
Proof. destruct r; intros (A1 & A2 & _); now split. Qed.
Lemma tri_keeps {A} (r : res A) w Q : tri w r Q -> keeps r.
Proof. destruct r; intros (A1 & A2 & A3); split; auto. Qed.
Lemma keeps_bind {A B} (r : res A) (f : A -> world -> res B) :
  keeps r -> (forall a w1, r = ROk a w1 -> J w1 -> keeps (f a w1)) -> keeps (rbind r f).
Proof. intros H Hf. destruct r as [a w1|e w1]; cbn [rbind]; [apply (Hf a w1 eq_refl), H|exact H]. Qed.
Lemma keeps_ok {A} (a : A) w : J w -> keeps (ROk a w).
Proof. now split. Qed.
Lemma keeps_fail {A} n w : J w -> keeps (@RFail A (FPanic n) w).
Proof. split; [assumption|apply l_panic]. Qed.

Lemma tri_le {A} (r : res A) w1 w Q : tle w1 w -> tri w1 r Q -> tri w r Q.
Proof. intros H. destruct r; intros (A1 & A2 & A3); (split; [exact A1|split; [exact (tle_trans _ _ _ A2 H)|exact A3]]). Qed.
Lemma place_J b w w' : place beh (fun w => True /\ J w) b w w' -> J w -> J w'.
Proof. intros Hp HJ. exact (proj1 (l_place L b w w' Hp I HJ I)). Qed.
Lemma tri_place {A} (r : res A) w w1 Q : place beh (fun w => True /\ J w) true w w1 -> J w -> (J w1 -> tri w1 r Q) -> tri w r Q.
Proof. intros Hp HJ H. destruct (l_place L true w w1 Hp I HJ I) as [J1 L1]. exact (tri_le _ _ _ _ (conj L1 (by_le_place _ true w w1 Hp)) (H J1)). Qed.
Lemma tri_quiet {A} (r : res A) w w1 Q : quiet w w1 -> J w -> (J w1 -> tri w1 r Q) -> tri w r Q.
Proof. intros Hq. exact (tri_place r w w1 Q (p_quiet w w1 Hq)). Qed.

Lemma flush_tri q w : J w -> (forall x, In x q -> queued w x) -> tri w (flush beh q w) (fun _ _ => True).
Proof.
  intros HJ HQ. destruct (l_flush L q w I HJ HQ I) as (A & B0 & C). pose proof (conj B0 (by_le_eq _ _ (bys_flush q w)) : tle _ w) as B.
  destruct (flush beh q w); cbn [res_world] in *; (split; [exact A|split; [exact B|]]); [exact I|exact C].
Qed.

Lemma gev_tri fuel : forall tag w, J w ->
  tri w (add_global_event beh fuel tag w) (fun k w' => alookup tag (w_gby w') = Some k) /\
  forall ev, tri w (send_global beh fuel tag ev w) (fun _ _ => True).
Proof.
  induction fuel as [|f IH]; intros tag w HJ; [split; [|intros ev]; apply tri_fail; auto using tle_refl|].
  assert (Hadd : tri w (add_global_event beh (S f) tag w) (fun k w' => alookup tag (w_gby w') = Some k)).
  { rewrite add_global_event_unfold. destruct (alookup tag (w_gby w)) as [k|] eqn:El; [apply tri_ok; [exact HJ|apply tle_refl|exact El]|].
    destruct (insert_with (fun _ => mkE tag (gkind tag)) (w_gev w)) as [[k m]|] eqn:Ei; [|apply tri_fail; auto using tle_refl].
    apply (tri_place _ _ _ _ (p_gev_entry w tag k m El Ei) HJ). intros J2.
    eapply tri_bind; [exact (proj2 (IH G_ADDGE _ J2) (mkEv 0 0 k))|].
    intros [] w3 J3 (_ & _ & L3 & _) _. apply tri_ok; [exact J3|apply tle_refl|apply L3, alookup_ainsert_eq]. }
  split; [exact Hadd|]. intros ev. rewrite send_global_unfold. destruct (IH tag w HJ) as [Ha _].
  destruct (add_global_event beh f tag w) as [k w1|e w1]; destruct Ha as (J1 & L1 & R1); apply (tri_le _ _ _ _ L1).
  - assert (N1 : quiet w1 (if 10 <? tag then note w1 tag (ev_id ev) else w1)) by (destruct (10 <? tag); [apply quiet_note|apply quiet_refl]).
    apply (tri_quiet _ _ _ _ N1 J1). intros J2. apply flush_tri; [exact J2|].
    intros x [<-|[]]. exists tag, k. split; [reflexivity|]. destruct (10 <? tag); exact R1.
  - apply (tri_quiet _ _ _ _ (quiet_ev_drop w1 false tag ev) J1). intros J2. split; [exact J2|split; [apply tle_refl|exact R1]].
Qed.
Lemma send_global_tri tag ev w : J w -> tri w (send_global beh RFUEL tag ev w) (fun _ _ => True).
Proof. intros H. exact (proj2 (gev_tri RFUEL tag w H) ev). Qed.
Lemma add_global_event_tri tag w : J w -> tri w (add_global_event beh RFUEL tag w) (fun k w' => alookup tag (w_gby w') = Some k).
Proof. intros H. exact (proj1 (gev_tri RFUEL tag w H)). Qed.

Lemma add_component_tri tag w : J w -> tri w (add_component beh tag w) (fun k w' => alookup tag (w_cby w') = Some k).
Proof.
  intros HJ. unfold add_component. destruct (alookup tag (w_cby w)) as [k|] eqn:El; [apply tri_ok; [exact HJ|apply tle_refl|exact El]|].
  destruct (insert_with (fun _ => mkC tag [] [] []) (w_comps w)) as [[k m]|] eqn:Ei; [|apply tri_fail; auto using tle_refl].
  apply (tri_place _ _ _ _ (p_comp_entry w tag k m El Ei) HJ). intros J1.
  eapply tri_bind; [exact (send_global_tri G_ADDC (mkEv 0 0 k) _ J1)|].
  intros [] w2 J2 (_ & L2 & _) _. apply tri_ok; [exact J2|apply tle_refl|apply L2, alookup_ainsert_eq].
Qed.

Lemma tev_stage1_tri tag w : J w -> tri w (tev_stage1 beh tag w) (fun kind w' => kind_from w' tag kind /\ tev_kind tag kind).
Proof.
  intros HJ. unfold tev_stage1.
  destruct ((20 <=? tag) && (tag <? 40)) eqn:E1; [|destruct ((40 <=? tag) && (tag <? 60)) eqn:E2; [|destruct (tag =? T_DESPAWN) eqn:E3; (apply tri_ok; [exact HJ|apply tle_refl|split; [exact I|]])]];
    try (eapply tri_bind; [now apply add_component_tri|]; intros c w1 J1 L1 R1; apply tri_ok; [exact J1|apply tle_refl|split; [now exists c|]]);
    cbn [tev_kind]; try exact I.
  - apply andb_true_iff in E1 as [A B]. split; [now apply N.leb_le|now apply N.ltb_lt].
  - apply andb_true_iff in E2 as [A B]. split; [now apply N.leb_le|now apply N.ltb_lt].
  - now apply N.eqb_eq.
Qed.

Lemma add_targeted_event_tri tag w : J w -> tri w (add_targeted_event beh tag w) (fun k w' => alookup tag (w_tby w') = Some k).
Proof.
  intros HJ. unfold add_targeted_event. eapply (tri_bind (tev_stage1 beh tag w)); [now apply tev_stage1_tri|]. intros kind w0 J0 _ [K0 T0].
  destruct (alookup tag (w_tby w0)) as [k|] eqn:El; [apply tri_ok; [exact J0|apply tle_refl|exact El]|].
  destruct (insert_with (fun _ => mkE tag kind) (w_tev w0)) as [[k m]|] eqn:Ei; [|apply tri_fail; auto using tle_refl].
  apply (tri_place _ _ _ _ (p_tev_entry w0 tag kind k m K0 T0 El Ei) J0). intros J2.
  eapply tri_bind; [exact (send_global_tri G_ADDTE (mkEv 0 0 k) _ J2)|].
  intros [] w3 J3 (_ & _ & _ & L3) _. apply tri_ok; [exact J3|apply tle_refl|apply L3; destruct kind; apply alookup_ainsert_eq].
Qed.

Lemma send_to_tri tag target ev w : J w -> tri w (send_to beh tag target ev w) (fun _ _ => True).
Proof.
  intros HJ. unfold send_to. pose proof (add_targeted_event_tri tag w HJ) as H.
  destruct (add_targeted_event beh tag w) as [k w1|e w1]; destruct H as (J1 & L1 & R1); apply (tri_le _ _ _ _ L1).
  - apply flush_tri; [exact J1|]. intros x [<-|[]]. exists tag, k. exact (conj eq_refl R1).
  - apply (tri_quiet _ _ _ _ (quiet_ev_drop w1 true tag ev) J1). intros J2. split; [exact J2|split; [apply tle_refl|exact R1]].
Qed.

Lemma resolve_query_tri q : forall w, J w -> tri w (resolve_query beh q w) (fun _ _ => True).
Proof.
  induction q as [c|c|qs IH|q IH|l r IHl IHr|l r IHl IHr|q IH|q IH|q IH|] using query_ind'; intros w HJ; cbn [resolve_query];
    try (eapply tri_bind; [now apply add_component_tri|intros ? w1 J1 _ _; apply tri_ok; [exact J1|apply tle_refl|exact I]]);
    try (eapply tri_bind; [now apply IH|intros ? w1 J1 _ _; apply tri_ok; [exact J1|apply tle_refl|exact I]]);
    try (eapply tri_bind; [now apply IHl|intros ? w1 J1 _ _; eapply tri_bind; [now apply IHr|intros ? w2 J2 _ _; apply tri_ok; [exact J2|apply tle_refl|exact I]]]);
    try (apply tri_ok; [exact HJ|apply tle_refl|exact I]).
  eapply tri_bind with (Q1 := fun _ _ => True); [|intros ? w1 J1 _ _; apply tri_ok; [exact J1|apply tle_refl|exact I]].
  revert w HJ. induction IH as [|x t Hx _ IHt]; intros w HJ; [apply tri_ok; [exact HJ|apply tle_refl|exact I]|].
  eapply tri_bind; [now apply Hx|]. intros x' w1 J1 _ _. eapply tri_bind; [now apply IHt|]. intros t' w2 J2 _ _. apply tri_ok; [exact J2|apply tle_refl|exact I].
Qed.

Lemma register_set_tri evs : forall w, J w -> tri w (register_set beh evs w) (fun r w' => Forall (registered w') r).
Proof.
  induction evs as [|[t tag] rest IH]; intros w HJ; cbn [register_set]; [apply tri_ok; [exact HJ|apply tle_refl|constructor]|].
  eapply tri_bind with (Q1 := fun k w' => registered w' (t, tag, fst k)).
  - destruct t; [eapply tri_weaken; [|now apply add_targeted_event_tri]|eapply tri_weaken; [|now apply add_global_event_tri]];
      intros k w' _ _ R; now exists k.
  - intros k w1 J1 _ R1. eapply tri_bind; [now apply IH|]. intros r w2 J2 L2 R2. apply tri_ok; [exact J2|apply tle_refl|].
    constructor; [exact (registered_le _ _ _ (proj2 L2) R1)|exact R2].
Qed.

Lemma init_param_tri p c w : J w -> tri w (init_param beh p c w) (fun c' w' => cfg_known c w -> cfg_known c' w').
Proof.
  intros HJ. rewrite init_param_eq. destruct p as [tag m|tag m q|kd q|evs].
  - eapply tri_bind; [now apply add_global_event_tri|]. intros k w1 J1 L1 R1. apply tri_ok; [exact J1|apply tle_refl|].
    intros HC. exact (cfg_known_recv_g _ _ tag _ _ (cfg_known_le _ _ _ (proj2 L1) HC) R1).
  - eapply tri_bind; [now apply add_targeted_event_tri|]. intros k w1 J1 L1 R1. eapply tri_bind; [now apply resolve_query_tri|].
    intros q' w2 J2 L2 _. apply tri_ok; [exact J2|apply tle_refl|].
    intros HC. exact (cfg_known_recv_t _ _ tag _ _ _ (cfg_known_le _ _ _ (proj2 (tle_trans _ _ _ L2 L1)) HC) (proj2 (proj2 (proj2 L2)) _ _ R1)).
  - eapply tri_bind; [now apply resolve_query_tri|]. intros q' w1 J1 L1 _. apply tri_ok; [exact J1|apply tle_refl|].
    intros HC. exact (cfg_known_fetch _ _ _ _ (cfg_known_le _ _ _ (proj2 L1) HC)).
  - eapply tri_bind; [now apply register_set_tri|]. intros r w1 J1 L1 R1. apply tri_ok; [exact J1|apply tle_refl|].
    intros HC. exact (cfg_known_sender _ _ _ (cfg_known_le _ _ _ (proj2 L1) HC) R1).
Qed.
Lemma init_params_tri ps : forall c w, J w -> tri w (init_params beh ps c w) (fun c' w' => cfg_known c w -> cfg_known c' w').
Proof.
  induction ps as [|p t IH]; intros c w HJ; cbn [init_params]; [apply tri_ok; [exact HJ|apply tle_refl|exact (fun H => H)]|].
  eapply tri_bind; [now apply init_param_tri|]. intros c1 w1 J1 _ C1. eapply tri_weaken; [|now apply IH]. intros c' w' _ _ C' HC. exact (C' (C1 HC)).
Qed.

Lemma add_handler_tri sh w : J w -> tri w (add_handler beh sh w) (fun _ _ => True).
Proof.
  intros HJ. rewrite add_handler_eq.
  destruct (match sh_tid sh with Some t => alookup t (w_hby w) | None => None end); [apply tri_ok; [exact HJ|apply tle_refl|exact I]|].
  pose proof (init_params_tri (sh_params sh) cfg0 w HJ) as H.
  destruct (init_params beh (sh_params sh) cfg0 w) as [c w1|f w1] eqn:Ei; [|exact H]. destruct H as (J1 & L1 & C1). cbn [rbind].
  apply (tri_le _ _ _ _ L1).
  destruct (handler_entry sh c w1) as [f|[k w3]] eqn:Eh.
  - unfold handler_entry in Eh. destruct (cf_recv c); destruct (cf_access c); try (inversion Eh; apply tri_fail; auto using tle_refl).
    destruct (handler_conflicts (cf_cas c)); [|inversion Eh; apply tri_fail; auto using tle_refl].
    cbn zeta in Eh. destruct (insert_with _ (w_hs w1)) as [[k hs]|]; inversion Eh. apply tri_fail; auto using tle_refl.
  - apply (tri_place _ _ _ _ (p_handler_entry sh w c w1 k w3 (C1 (cfg_known0 w)) Ei Eh) J1). intros J3.
    eapply tri_bind; [exact (send_global_tri G_ADDH (mkEv 0 0 k) w3 J3)|].
    intros [] w4 J4 _ _. apply tri_ok; [exact J4|apply tle_refl|exact I].
Qed.

Lemma remove_handler_keeps k w : J w -> keeps (remove_handler beh k w).
Proof.
  intros HJ. unfold remove_handler. destruct (sm_get k (w_hs w)) as [h0|]; [clear h0|now apply keeps_ok].
  apply keeps_bind; [exact (tri_keeps _ _ _ (send_global_tri G_RMH (mkEv 0 0 k) w HJ))|]. intros [] w1 _ J1.
  destruct (handlers_remove w1 k) as [[h w2]|] eqn:Eh; [apply keeps_ok; exact (place_J _ _ _ (p_handler_exit w1 k h w2 Eh) J1)|now apply keeps_fail].
Qed.
Lemma remove_handlers_keeps ks : forall w, J w -> keeps (remove_handlers beh ks w).
Proof.
  induction ks as [|k t IH]; intros w HJ; cbn [remove_handlers]; [now apply keeps_ok|].
  apply keeps_bind; [now apply remove_handler_keeps|]. intros b w1 _ J1. now apply IH.
Qed.

Lemma remove_global_event_keeps k w : J w -> keeps (remove_global_event beh k w).
Proof.
  intros HJ. unfold remove_global_event. destruct (sm_get k (w_gev w)); [|now apply keeps_ok].
  apply keeps_bind; [exact (tri_keeps _ _ _ (send_global_tri G_RMGE (mkEv 0 0 k) w HJ))|]. intros [] w1 E1 J1.
  apply keeps_bind; [now apply remove_handlers_keeps|]. intros [] w2 E2 J2.
  destruct (sm_remove k (w_gev w2)) as [[info m]|] eqn:Er; [apply keeps_ok; exact (place_J _ _ _ (p_gev_exit k w w1 w2 info m (conj I HJ) E1 (conj I J1) E2 Er) J2)|now apply keeps_fail].
Qed.
Lemma remove_targeted_event_keeps k w : J w -> keeps (remove_targeted_event beh k w).
Proof.
  intros HJ. unfold remove_targeted_event. destruct (sm_get k (w_tev w)); [|now apply keeps_ok].
  apply keeps_bind; [exact (tri_keeps _ _ _ (send_global_tri G_RMTE (mkEv 0 0 k) w HJ))|]. intros [] w1 E1 J1.
  apply keeps_bind; [now apply remove_handlers_keeps|]. intros [] w2 E2 J2.
  destruct (sm_remove k (w_tev w2)) as [[info m]|] eqn:Er; [apply keeps_ok; exact (place_J _ _ _ (p_tev_exit k w w1 w2 info m (conj I HJ) E1 (conj I J1) E2 Er) J2)|now apply keeps_fail].
Qed.
Lemma remove_tevents_keeps ks : forall w, J w -> keeps (remove_tevents beh ks w).
Proof.
  induction ks as [|k t IH]; intros w HJ; cbn [remove_tevents]; [now apply keeps_ok|].
  apply keeps_bind; [now apply remove_targeted_event_keeps|]. intros b w1 _ J1. now apply IH.
Qed.

Lemma remove_component_keeps k w : comp_exit_ok L -> J w -> keeps (remove_component beh k w).
Proof.
  intros Hexit HJ. unfold remove_component. destruct (sm_get k (w_comps w)); [|now apply keeps_ok].
  apply keeps_bind; [exact (tri_keeps _ _ _ (send_global_tri G_RMC (mkEv 0 0 k) w HJ))|]. intros [] w1 E1 J1.
  pose proof (add_targeted_event_tri T_DESPAWN w1 J1) as H2.
  destruct (add_targeted_event beh T_DESPAWN w1) as [dk w2|f w2] eqn:E2; [|exact (tri_keeps _ _ _ H2)]. destruct H2 as (J2 & _ & R2).
  cbn [rbind]. cbn zeta. fold (despawn_queue k dk w2).
  apply keeps_bind.
  { apply (tri_keeps _ w2 (fun _ _ => True)). exact (flush_tri _ w2 J2 (despawn_queued k dk w2 R2)). }
  intros [] w3 E3 J3. fold (comp_users k w3). apply keeps_bind; [now apply remove_handlers_keeps|]. intros [] w4 E4 J4.
  destruct (sm_get k (w_comps w4)) as [ci|] eqn:Eg; [|now apply keeps_fail].
  apply keeps_bind; [now apply remove_tevents_keeps|]. intros [] w5 E5 J5.
  destruct (sm_remove k (w_comps w5)) as [[ci' m]|] eqn:Er; [|now apply keeps_fail].
  apply keeps_ok. exact (Hexit k w w1 dk w2 w3 w4 ci w5 ci' m I HJ E1 I J1 E2 I J2 E3 I J3 E4 I J4 Eg E5 I J5 Er I).
Qed.

Lemma op_spawn_tri w : J w -> tri w (op_spawn beh w) (fun _ _ => True).
Proof.
  intros HJ. unfold op_spawn. destruct (reserve w) as [id w1|f w1] eqn:Er; cbn [rbind].
  - apply (tri_quiet _ _ _ _ (quiet_reserve w id w1 Er) HJ). intros J1. eapply tri_bind; [now apply send_global_tri|].
    intros [] w2 J2 _ _. apply (tri_quiet _ _ _ _ (quiet_set_h w2 (w_h (push_known w2 id))) J2). intros J3. apply tri_ok; [exact J3|apply tle_refl|exact I].
  - unfold reserve in Er. destruct (nki_next (w_rcur w) (w_ents w)) as [[[k|] i]|]; inversion Er; subst; apply tri_fail; auto using tle_refl.
Qed.
Lemma new_cval_quiet w ktag : quiet w (snd (new_cval w ktag)).
Proof. unfold new_cval. destruct (ctag_zst ktag); [apply quiet_refl|apply quiet_set_h]. Qed.
Lemma op_insert_tri e ktag w : J w -> tri w (op_insert beh e ktag w) (fun _ _ => True).
Proof.
  intros HJ. unfold op_insert. apply (tri_quiet _ _ _ _ (new_cval_quiet w ktag) HJ). destruct (new_cval w ktag) as [v w1]. now apply send_to_tri.
Qed.
Lemma op_send_tri gtag w : J w -> tri w (op_send beh gtag w) (fun _ _ => True).
Proof.
  intros HJ. unfold op_send. apply (tri_quiet _ _ _ _ (quiet_set_h _ _ : quiet w (snd (fresh_serial w))) HJ). destruct (fresh_serial w) as [s w1]. now apply send_global_tri.
Qed.
Lemma op_send_to_tri e ttag w : J w -> tri w (op_send_to beh e ttag w) (fun _ _ => True).
Proof.
  intros HJ. unfold op_send_to. apply (tri_quiet _ _ _ _ (quiet_set_h _ _ : quiet w (snd (fresh_serial w))) HJ). destruct (fresh_serial w) as [s w1]. now apply send_to_tri.
Qed.
End Calls.

(* the worlds a successful removal has gone through, with the invariant of a layer at each of them *)
Section Walk.
Variable L : Layer beh (fun _ => True).

Lemma remove_global_event_inv k w w' : lJ L w -> remove_global_event beh k w = ROk true w' ->
  exists w1 w2 info m, send_global beh RFUEL G_RMGE (mkEv 0 0 k) w = ROk tt w1 /\ lJ L w1 /\
    remove_handlers beh (gev_users k w1) w1 = ROk tt w2 /\ lJ L w2 /\ sm_remove k (w_gev w2) = Some (info, m) /\
    w' = set_gev w2 m (aremove (e_tag info) (w_gby w2)).
Proof.
  intros HJ. unfold remove_global_event. destruct (sm_get k (w_gev w)); [|discriminate].
  pose proof (send_global_tri L G_RMGE (mkEv 0 0 k) w HJ) as H1.
  destruct (send_global beh RFUEL G_RMGE (mkEv 0 0 k) w) as [[] w1|]; [|discriminate]. cbn [rbind]. cbn zeta. fold (gev_users k w1).
  pose proof (remove_handlers_keeps L (gev_users k w1) w1 (proj1 H1)) as [H2 _].
  destruct (remove_handlers beh (gev_users k w1) w1) as [[] w2|] eqn:E2; [|discriminate]. cbn [rbind res_world] in *.
  destruct (sm_remove k (w_gev w2)) as [[info m]|] eqn:Er; [|discriminate]. intros E. inversion E.
  exists w1, w2, info, m. exact (conj eq_refl (conj (proj1 H1) (conj E2 (conj H2 (conj Er eq_refl))))).
Qed.

Lemma remove_targeted_event_inv k w w' : lJ L w -> remove_targeted_event beh k w = ROk true w' ->
  exists w1 w2 info m, send_global beh RFUEL G_RMTE (mkEv 0 0 k) w = ROk tt w1 /\ lJ L w1 /\
    remove_handlers beh (tev_users k w1) w1 = ROk tt w2 /\ lJ L w2 /\ sm_remove k (w_tev w2) = Some (info, m) /\
    w' = tev_exit_world w2 k info m.
Proof.
  intros HJ. unfold remove_targeted_event. destruct (sm_get k (w_tev w)); [|discriminate].
  pose proof (send_global_tri L G_RMTE (mkEv 0 0 k) w HJ) as H1.
  destruct (send_global beh RFUEL G_RMTE (mkEv 0 0 k) w) as [[] w1|]; [|discriminate]. cbn [rbind]. cbn zeta. fold (tev_users k w1).
  pose proof (remove_handlers_keeps L (tev_users k w1) w1 (proj1 H1)) as [H2 _].
  destruct (remove_handlers beh (tev_users k w1) w1) as [[] w2|] eqn:E2; [|discriminate]. cbn [rbind res_world] in *.
  destruct (sm_remove k (w_tev w2)) as [[info m]|] eqn:Er; [|discriminate]. intros E. inversion E.
  exists w1, w2, info, m. exact (conj eq_refl (conj (proj1 H1) (conj E2 (conj H2 (conj Er eq_refl))))).
Qed.
Lemma remove_component_inv k w w' : lJ L w -> remove_component beh k w = ROk true w' ->
  exists w1 dk w2 w3 w4 ci w5 ci' m, send_global beh RFUEL G_RMC (mkEv 0 0 k) w = ROk tt w1 /\ lJ L w1 /\
    add_targeted_event beh T_DESPAWN w1 = ROk dk w2 /\ lJ L w2 /\ flush beh (despawn_queue k dk w2) w2 = ROk tt w3 /\ lJ L w3 /\
    remove_handlers beh (comp_users k w3) w3 = ROk tt w4 /\ lJ L w4 /\ sm_get k (w_comps w4) = Some ci /\
    remove_tevents beh (c_ins ci ++ c_rem ci) w4 = ROk tt w5 /\ lJ L w5 /\ sm_remove k (w_comps w5) = Some (ci', m) /\
    w' = comp_exit_world w5 k ci' m.
Proof.
  intros HJ. unfold remove_component. destruct (sm_get k (w_comps w)); [|discriminate].
  pose proof (send_global_tri L G_RMC (mkEv 0 0 k) w HJ) as H1.
  destruct (send_global beh RFUEL G_RMC (mkEv 0 0 k) w) as [[] w1|]; [|discriminate]. cbn [rbind].
  pose proof (add_targeted_event_tri L T_DESPAWN w1 (proj1 H1)) as H2.
  destruct (add_targeted_event beh T_DESPAWN w1) as [dk w2|] eqn:E2; [|discriminate]. cbn [rbind]. cbn zeta. fold (despawn_queue k dk w2).
  assert (H3 : tri L w2 (flush beh (despawn_queue k dk w2) w2) (fun _ _ => True)).
  { exact (flush_tri L _ w2 (proj1 H2) (despawn_queued k dk w2 (proj2 (proj2 H2)))). }
  destruct (flush beh (despawn_queue k dk w2) w2) as [[] w3|] eqn:E3; [|discriminate]. cbn [rbind]. fold (comp_users k w3).
  pose proof (remove_handlers_keeps L (comp_users k w3) w3 (proj1 H3)) as [H4 _].
  destruct (remove_handlers beh (comp_users k w3) w3) as [[] w4|] eqn:E4; [|discriminate]. cbn [rbind res_world] in *.
  destruct (sm_get k (w_comps w4)) as [ci|] eqn:Eg; [|discriminate].
  pose proof (remove_tevents_keeps L (c_ins ci ++ c_rem ci) w4 H4) as [H5 _].
  destruct (remove_tevents beh (c_ins ci ++ c_rem ci) w4) as [[] w5|] eqn:E5; [|discriminate]. cbn [rbind res_world] in *.
  destruct (sm_remove k (w_comps w5)) as [[ci' m]|] eqn:Er; [|discriminate]. intros E. inversion E.
  exists w1, dk, w2, w3, w4, ci, w5, ci', m.
  exact (conj eq_refl (conj (proj1 H1) (conj E2 (conj (proj1 H2) (conj E3 (conj (proj1 H3) (conj E4 (conj H4 (conj Eg (conj E5 (conj H5 (conj Er eq_refl)))))))))))).
Qed.
End Walk.
End Layer.
Arguments stack {beh K K2}. Arguments comp_exit_ok {beh K}.
