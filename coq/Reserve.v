(* Reserve.v : NextKeyIter / ReservedEntities prediction, on top of SlotMap.v *)
From Coq Require Import List NArith Bool Lia PeanoNat.
Import ListNotations.
Require Import EV.Base EV.SlotMap.
Open Scope N_scope.

Section R.
Variable V : Type.
Notation smap := (smap V). Notation slot := (slot V).

(* slot_map.rs:145-154 *)
Definition next_key_iter (m : smap) : N :=
  if next_free m =? U32MAX then N.of_nat (length (slots m)) else next_free m.

(* slot_map.rs:341-370 ; outer None = the "incorrect state for next key iter" panic *)
Definition nki_next (idx : N) (m : smap) : option (option key * N) :=
  match sget (slots m) idx with
  | Some s =>
      if N.even (gen s)
      then Some (Some (idx, gen s + 1),
                 if link s =? U32MAX then N.of_nat (length (slots m)) else link s)
      else None
  | None => if idx <? U32MAX then Some (Some (idx, 1), idx + 1) else Some (None, idx)
  end.

(* n successive predictions on an unchanged map *)
Fixpoint predict (n : nat) (idx : N) (m : smap) : option (list key * N) :=
  match n with
  | O => Some ([], idx)
  | S n' => match nki_next idx m with
            | Some (Some k, idx') => match predict n' idx' m with
                                     | Some (ks, i) => Some (k :: ks, i) | None => None end
            | _ => None
            end
  end.
(* n successive inserts (entity.rs:216-227 spawn_all) *)
Fixpoint inserts (n : nat) (f : key -> V) (m : smap) : option (list key * smap) :=
  match n with
  | O => Some ([], m)
  | S n' => match insert_with f m with
            | Some (k, m') => match inserts n' f m' with
                              | Some (ks, m'') => Some (k :: ks, m'') | None => None end
            | None => None
            end
  end.

(* the explicit key sequence both must produce: free chain first, then fresh indices *)
Fixpoint spec_keys (l : list slot) (c : list N) (base : N) (n : nat) : list key :=
  match n with
  | O => []
  | S n' => match c with
            | i :: rest => (i, match sget l i with Some s => gen s + 1 | None => 0 end) :: spec_keys l rest base n'
            | [] => (base, 1) :: spec_keys l [] (base + 1) n'
            end
  end.

Definition start_of (l : list slot) (h : N) : N := if h =? U32MAX then N.of_nat (length l) else h.

Lemma predict_spec m : N.of_nat (length (slots m)) <= U32MAX ->
  forall n h c, chain (slots m) h c ->
  (N.of_nat (length (slots m)) + N.of_nat n <= U32MAX) ->
  exists i, predict n (start_of (slots m) h) m = Some (spec_keys (slots m) c (N.of_nat (length (slots m))) n, i).
Proof.
  intros Hb. set (L := N.of_nat (length (slots m))) in *.
  (* fresh-index phase *)
  assert (Fresh : forall n base, L <= base -> base + N.of_nat n <= U32MAX ->
            exists i, predict n base m = Some (spec_keys (slots m) [] base n, i)).
  { induction n as [|n IH]; intros base H1 H2; cbn [predict spec_keys]; [eauto|].
    unfold nki_next. destruct (sget (slots m) base) as [s|] eqn:E.
    - apply sget_lt in E. fold L in E. lia.
    - assert (base <? U32MAX = true) as -> by (apply N.ltb_lt; lia).
      destruct (IH (base + 1)) as [i Hi]; [lia|lia|]. rewrite Hi. eauto. }
  induction n as [|n IH]; intros h c Hc Hn; cbn [predict spec_keys]; [eauto|].
  destruct Hc as [|i s rest Hs He Hnz Hrest].
  - unfold start_of. rewrite N.eqb_refl. fold L.
    destruct (Fresh (S n) L) as [j Hj]; [lia|lia|]. cbn [predict spec_keys] in Hj. eauto.
  - assert (i < L) by (eapply sget_lt; eauto). unfold start_of.
    assert (i =? U32MAX = false) as -> by (apply N.eqb_neq; lia).
    unfold nki_next. rewrite Hs, He.
    destruct (IH (link s) rest Hrest) as [j Hj]; [lia|]. unfold start_of in Hj. fold L. fold L in Hj. rewrite Hj. eauto.
Qed.

Lemma spec_keys_ext (l l' : list slot) c base n : (forall i, In i c -> sget l' i = sget l i) -> spec_keys l' c base n = spec_keys l c base n.
Proof.
  revert c base. induction n as [|n IH]; intros c base H; cbn; [reflexivity|]. destruct c as [|i rest].
  - f_equal. apply IH. intros ? [].
  - rewrite H by now left. f_equal. apply IH. intros j Hj. apply H. now right.
Qed.

Lemma fresh_ext (m m' : smap) : forall n base, N.of_nat (length (slots m)) <= base -> N.of_nat (length (slots m')) <= base ->
  predict n base m' = predict n base m.
Proof.
  induction n as [|n IH]; intros base H1 H2; cbn [predict]; [reflexivity|].
  unfold nki_next. rewrite (sget_ge _ _ H1), (sget_ge _ _ H2). destruct (base <? U32MAX); [|reflexivity].
  rewrite (IH (base + 1)) by lia. reflexivity.
Qed.

Lemma predict_off_chain (m m' : smap) i0 : length (slots m') = length (slots m) ->
  (forall j, j <> i0 -> sget (slots m') j = sget (slots m) j) -> N.of_nat (length (slots m)) <= U32MAX ->
  forall n h c, chain (slots m) h c -> ~ In i0 c -> predict n (start_of (slots m) h) m' = predict n (start_of (slots m) h) m.
Proof.
  intros Hl Hs Hb. induction n as [|n IH]; intros h c Hc Hni; cbn [predict]; [reflexivity|].
  destruct Hc as [|i s rest Hg He Hnz Hrest].
  - unfold start_of. rewrite N.eqb_refl. apply (fresh_ext m m' (S n)); [lia|rewrite Hl; lia].
  - assert (i < N.of_nat (length (slots m))) by (eapply sget_lt; eauto). unfold start_of.
    assert (i =? U32MAX = false) as -> by (apply N.eqb_neq; lia).
    assert (Hne : i <> i0) by (intros ->; apply Hni; now left).
    unfold nki_next. rewrite (Hs i Hne), Hg, He, Hl.
    specialize (IH (link s) rest Hrest (fun X => Hni (or_intror X))). unfold start_of in IH. rewrite IH. reflexivity.
Qed.

Lemma insert_predicted (f : key -> V) (m : smap) k ks i n : SmInv m ->
  predict (S n) (next_key_iter m) m = Some (k :: ks, i) ->
  exists m', insert_with f m = Some (k, m') /\ predict n (next_key_iter m') m' = Some (ks, i).
Proof.
  intros Hi Hp. pose proof Hi as ((c & Hc & Hnd) & Hok & Hb). cbn [predict] in Hp.
  destruct (nki_next (next_key_iter m) m) as [[[k0|] idx']|] eqn:En; try discriminate.
  destruct (predict n idx' m) as [[ks0 i0]|] eqn:Ep; [|discriminate]. inversion Hp; subst k0 ks0 i0. clear Hp.
  unfold next_key_iter, nki_next, insert_with in *. set (L := N.of_nat (length (slots m))) in *.
  destruct (next_free m =? U32MAX) eqn:Enf.
  - apply N.eqb_eq in Enf. rewrite (sget_ge (slots m) L) in En by (unfold L; lia).
    destruct (L <? U32MAX) eqn:EL; [|discriminate]. apply N.ltb_lt in EL. inversion En; subst k idx'. clear En.
    rewrite Enf, (sget_ge (slots m) U32MAX) by (fold L; lia). assert (L =? U32MAX = false) as -> by (apply N.eqb_neq; lia).
    eexists. split; [reflexivity|]. cbn [next_free slots]. rewrite N.eqb_refl, app_length. cbn [length].
    replace (N.of_nat (length (slots m) + 1)) with (L + 1) by (unfold L; lia).
    rewrite <- Ep. apply fresh_ext; [fold L; lia|cbn [slots]; rewrite app_length; cbn [length]; unfold L; lia].
  - apply N.eqb_neq in Enf. destruct (sget (slots m) (next_free m)) as [s|] eqn:Es.
    + destruct (chain_head _ _ _ Hb Hc _ Es) as (rest & -> & Hev & Hnz & Hrest). rewrite Hev in En. inversion En; subst k idx'. clear En.
      eexists. split; [reflexivity|]. cbn [next_free slots]. rewrite supd_length. fold L.
      apply NoDup_cons_iff in Hnd as [Hni _].
      pose proof (predict_off_chain m (mkSm (supd (slots m) (next_free m) (mkSlot (gen s + 1) (link s) (Some (f (next_free m, gen s + 1))))) (link s) (sm_len m + 1))
                   (next_free m) (supd_length _ _ _) (fun j Hj => sget_supd_neq _ _ _ _ (fun X => Hj (eq_sym X))) Hb n (link s) rest Hrest Hni) as X.
      unfold start_of in X. fold L in X. rewrite X. exact Ep.
    + exfalso. destruct Hc as [|j sj rest Hg _ _ _]; [now apply Enf|congruence].
Qed.

Lemma predict_S_cons n i (m : smap) ks j : predict (S n) i m = Some (ks, j) -> exists k ks', ks = k :: ks'.
Proof.
  cbn [predict]. destruct (nki_next i m) as [[[k|] i']|]; try discriminate. destruct (predict n i' m) as [[ks' j']|]; [|discriminate].
  intros H. inversion H. eauto.
Qed.

Lemma inserts_predicted (f : key -> V) n : forall (m : smap) ks i, SmInv m -> predict n (next_key_iter m) m = Some (ks, i) ->
  exists m', inserts n f m = Some (ks, m') /\ SmInv m' /\ next_key_iter m' = i.
Proof.
  induction n as [|n IH]; intros m ks i Hi Hp.
  - cbn [predict] in Hp. inversion Hp; subst. exists m. cbn [inserts]. auto.
  - destruct (predict_S_cons _ _ _ _ _ Hp) as (k1 & ks' & ->). destruct (insert_predicted f m k1 ks' i n Hi Hp) as (m1 & E1 & P1).
    destruct (IH m1 ks' i (insert_inv _ _ _ _ Hi E1) P1) as (m' & E2 & Hi' & Hn). exists m'. cbn [inserts]. rewrite E1, E2. auto.
Qed.

Lemma inserts_spec f : forall n m c, SmInv m -> chain (slots m) (next_free m) c -> NoDup c ->
  N.of_nat (length (slots m)) + N.of_nat n <= U32MAX ->
  exists m', inserts n f m = Some (spec_keys (slots m) c (N.of_nat (length (slots m))) n, m') /\ SmInv m'.
Proof.
  intros n m c Hi Hc _ Hn. destruct (predict_spec m (proj2 (proj2 Hi)) n _ _ Hc Hn) as [i Hp].
  destruct (inserts_predicted f n m _ i Hi Hp) as (m' & E & Hi' & _). eauto.
Qed.

(* C03 core: what `reserve` promised is exactly what `spawn_all` creates, and the cursor is fresh again *)
Theorem nki_predicts f n m :
  SmInv m -> N.of_nat (length (slots m)) + N.of_nat n <= U32MAX ->
  exists ks i m', predict n (next_key_iter m) m = Some (ks, i) /\ inserts n f m = Some (ks, m') /\ SmInv m'.
Proof.
  intros Hi Hn. pose proof Hi as ((c & Hc & Hnd) & Hok & Hb).
  destruct (predict_spec m Hb n _ _ Hc Hn) as [i Hp].
  destruct (inserts_spec f n m c Hi Hc Hnd Hn) as (m' & Hm' & Hi').
  exists (spec_keys (slots m) c (N.of_nat (length (slots m))) n), i, m'. auto.
Qed.
End R.
Arguments inserts {V}. Arguments predict {V}. Arguments next_key_iter {V}. Arguments nki_next {V}.
Arguments fresh_ext {V}. Arguments predict_off_chain {V}.
Arguments insert_predicted {V}. Arguments predict_S_cons {V}. Arguments inserts_predicted {V}.
Check nki_predicts. Print Assumptions nki_predicts.

(* The defect D6/D2 in the model: a removal between prediction and materialisation breaks the promise. *)
Definition m0 : smap nat := sm_empty.
Definition run3 := (* three inserts, then: predict one key, sm_remove key (1,1), insert one *)
  match inserts 3%nat (fun _ => 0%nat) m0 with
  | Some (_, m) =>
      match predict 1%nat (next_key_iter m) m, sm_remove (1,1) m with
      | Some (ks, _), Some (_, m') => match inserts 1%nat (fun _ => 0%nat) m' with Some (ks', _) => Some (ks, ks') | None => None end
      | _, _ => None
      end
  | None => None
  end.
Eval vm_compute in run3.   (* = Some ([(3,1)], [(1,3)]) : promised 3v1, created 1v3 *)
