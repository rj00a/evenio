(* Register.v : how handlers and archetypes are registered with one another.
   Archetype::register_handler changes the two tables of one archetype, as a function of the handler's static part alone
   ([reg_arch]), and refreshes the handler's caches or leaves the handler as it is.  So the archetype side and the handler
   side of the bulk operations do not interact, and each operation is a record update whose parts are given outright:
     Archetypes::register_handler  every archetype a becomes [reg_arch h0 a], the handler the fold of its refreshes;
     Archetype::new (create_arch)  the handler table is untouched, the new archetype is a fold of [reg_arch];
   (Archetypes::remove_handler is a map over the slab as it stands: Listen.archs_remove_handler_at.)
   An invariant then needs its own fact about one [reg_arch], and nothing about the folds. *)
From Coq Require Import List NArith Bool Lia.
Import ListNotations.
Require Import EV.Base EV.ListN EV.Access EV.Query EV.SlotMap EV.Reserve EV.HList EV.Loop EV.World EV.SlotMapGet
  EV.ArchProofs EV.WorldFrame EV.Store.
Open Scope N_scope.

Lemma upd_key_get_self {V} (m : smap V) k (u : V -> V) v : sm_get k m = Some v -> sm_get k (upd_by_key m k u) = Some (u v).
Proof. intros E. unfold upd_by_key. rewrite E. now apply upd_get_eq. Qed.
Lemma upd_key_get_other {V} (m : smap V) k (u : V -> V) x : x <> k -> sm_get x (upd_by_key m k u) = sm_get x m.
Proof.
  intros Hne. unfold upd_by_key. destruct (sm_get k m) as [v|] eqn:E; [|reflexivity]. now apply (upd_get_other m k v).
Qed.
Lemma nset_twice {A} (l : list A) : forall i x y, nset (nset l i x) i y = nset l i y.
Proof. induction l as [|h t IH]; intros i x y; cbn [nset]; [reflexivity|]. destruct (i =? 0) eqn:E; cbn [nset]; rewrite E; [reflexivity|now rewrite IH]. Qed.
Lemma upd_by_key_same {V} (m : smap V) k v : sm_get k m = Some v -> upd_by_key m k (fun _ => v) = m.
Proof.
  intros H. unfold upd_by_key, upd_by_index. rewrite H. destruct (sm_get_some_inv _ _ _ H) as (s & Hs & _ & Hv). rewrite Hs, Hv.
  replace (mkSlot (gen s) (link s) (Some v)) with s by (destruct s; cbn in *; now subst).
  change (supd (slots m) (fst k) s) with (nset (slots m) (fst k) s). rewrite (nset_same _ _ _ Hs). now destruct m.
Qed.
Lemma upd_by_key_twice {V} (m : smap V) k (v v' : V) : upd_by_key (upd_by_key m k (fun _ => v)) k (fun _ => v') = upd_by_key m k (fun _ => v').
Proof.
  destruct (sm_get k m) as [v0|] eqn:H; [|unfold upd_by_key; now rewrite H, H].
  unfold upd_by_key at 1. rewrite (upd_key_get_self m k (fun _ => v) v0 H). unfold upd_by_key. rewrite H.
  destruct (sm_get_some_inv _ _ _ H) as (s & Hs & _ & Hv). unfold upd_by_index. rewrite Hs, Hv. cbn [slots next_free sm_len].
  rewrite (sget_supd_eq _ _ _ _ Hs). cbn [gen link val]. f_equal. exact (nset_twice (slots m) (fst k) _ _).
Qed.

Definition reg_arch (h : hinfo) (a : arch) : arch :=
  set_tables a
    (if ca_matches (arch_has a) (h_archfilter h) then kset_insert (h_key h) (a_refresh a) else a_refresh a)
    (match h_recv h with
     | RvTargeted ek => if ca_matches (arch_has a) (h_filter h)
                        then listeners_insert (a_listeners a) (fst ek) (h_key h) (h_prio h) else a_listeners a
     | RvGlobal _ => a_listeners a end).

Lemma register_handler_fst ai a h : fst (register_handler ai a h) = reg_arch h a.
Proof.
  unfold register_handler, reg_arch. destruct (ca_matches (arch_has a) (h_archfilter h)); destruct (h_recv h);
    try destruct (ca_matches (arch_has a) (h_filter h)); destruct a; reflexivity.
Qed.
Lemma register_handler_snd ai a h : snd (register_handler ai a h) =
  if ca_matches (arch_has a) (h_archfilter h) && (0 <? nlen (a_rows a)) then h_refresh ai a h else h.
Proof.
  unfold register_handler. destruct (ca_matches (arch_has a) (h_archfilter h)); destruct (h_recv h);
    try destruct (ca_matches (arch_has a) (h_filter h)); reflexivity.
Qed.

Definition same_static (h' h : hinfo) : Prop := set_params h' [] = set_params h [].
Lemma reg_arch_static h' h a : same_static h' h -> reg_arch h' a = reg_arch h a.
Proof. intros E. change (reg_arch (set_params h' []) a = reg_arch (set_params h []) a). now rewrite E. Qed.
Lemma register_handler_static ai a h : same_static (snd (register_handler ai a h)) h.
Proof. rewrite register_handler_snd. destruct (_ && _); reflexivity. Qed.

(* the handler side and the archetype side of a registration with the archetypes at the indices [l]: they do not interact *)
Definition regs_h (w : world) (l : list N) (h : hinfo) : hinfo :=
  fold_left (fun h ai => match arch_at w ai with Some a => snd (register_handler ai a h) | None => h end) l h.
Definition regs_w (h0 : hinfo) (l : list N) (w : world) : world := fold_left (fun w ai => upd_arch w ai (reg_arch h0)) l w.

Lemma regs_h_view {T} (v : hinfo -> T) w l : (forall ai a h, v (h_refresh ai a h) = v h) -> forall h, v (regs_h w l h) = v h.
Proof.
  intros Hv. induction l as [|ai l IH]; intros h; cbn [regs_h fold_left]; [reflexivity|]. destruct (arch_at w ai) as [a|]; [|apply IH].
  fold (regs_h w l (snd (register_handler ai a h))). rewrite IH, register_handler_snd. now destruct (_ && _).
Qed.
Lemma regs_h_static w l h : same_static (regs_h w l h) h.
Proof. now apply (regs_h_view (fun h => set_params h [])). Qed.
Lemma regs_h_ext w w' l : (forall ai, In ai l -> arch_at w' ai = arch_at w ai) -> forall h, regs_h w' l h = regs_h w l h.
Proof.
  induction l as [|ai l IH]; intros H h; cbn [regs_h fold_left]; [reflexivity|]. rewrite (H ai (or_introl eq_refl)).
  apply IH. intros aj Hj. apply H. now right.
Qed.

Lemma arch_at_upd_arch w ai f j : arch_at (upd_arch w ai f) j = if j =? ai then option_map f (arch_at w ai) else arch_at w j.
Proof.
  unfold upd_arch, arch_at. destruct (slab_get (w_archs w) ai) as [a|] eqn:Ha; cbn [w_archs set_archs option_map].
  - exact (slab_get_set _ ai a (f a) j Ha).
  - destruct (N.eqb_spec j ai) as [->|_]; [exact Ha|reflexivity].
Qed.
Lemma regs_w_comm (u : world -> world) : (forall w, w_archs (u w) = w_archs w) -> (forall w x, u (set_archs w x) = set_archs (u w) x) ->
  forall h0 l w, regs_w h0 l (u w) = u (regs_w h0 l w).
Proof.
  intros Ha Hc h0. unfold regs_w. induction l as [|ai l IH]; intros w; cbn [fold_left]; [reflexivity|]. rewrite <- IH. f_equal.
  unfold upd_arch. rewrite Ha. destruct (slab_get (w_archs w) ai); [symmetry; apply Hc|reflexivity].
Qed.
Lemma regs_w_at h0 l : NoDup l -> forall w j,
  arch_at (regs_w h0 l w) j = if existsb (N.eqb j) l then option_map (reg_arch h0) (arch_at w j) else arch_at w j.
Proof.
  unfold regs_w. induction l as [|ai l IH]; intros Hnd w j; cbn [fold_left existsb]; [reflexivity|]. inversion Hnd as [|? ? Hni Hnd']; subst.
  rewrite (IH Hnd'), !arch_at_upd_arch. destruct (N.eqb_spec j ai) as [->|Hne]; cbn [orb]; [|reflexivity].
  destruct (existsb (N.eqb ai) l) eqn:E; [|reflexivity]. apply existsb_exists in E as (x & Hx & E). apply N.eqb_eq in E. now subst x.
Qed.

(* Archetypes::register_handler over any duplicate-free list of indices: the archetypes in the list are updated by
   [reg_arch h0], whatever has happened to the handler's parameters in between, and the handler is refreshed with the
   archetypes as they were at the start *)
Lemma arh_fold_eq hk h0 (L : list (N * arch)) : NoDup (map fst L) -> forall w h, sm_get hk (w_hs w) = Some h -> same_static h h0 ->
  fold_left (fun w' '(ai, _) =>
    match slab_get (w_archs w') ai, sm_get hk (w_hs w') with
    | Some a, Some h =>
        let '(a', h') := register_handler ai a h in
        set_hs (set_archs w' (slab_set (w_archs w') ai a')) (upd_by_key (w_hs w') hk (fun _ => h'))
    | _, _ => w'
    end) L w =
  set_hs (regs_w h0 (map fst L) w) (upd_by_key (w_hs w) hk (fun _ => regs_h w (map fst L) h)).
Proof.
  induction L as [|[ai x] L IH]; intros Hnd w h Hg Hs; cbn [fold_left map fst].
  - cbn [regs_w regs_h fold_left]. rewrite (upd_by_key_same _ _ _ Hg). now destruct w.
  - inversion Hnd as [|? ? Hni Hnd']; subst. rewrite Hg.
    change (regs_w h0 (ai :: map fst L) w) with (regs_w h0 (map fst L) (upd_arch w ai (reg_arch h0))).
    change (regs_h w (ai :: map fst L) h) with
      (regs_h w (map fst L) (match slab_get (w_archs w) ai with Some a => snd (register_handler ai a h) | None => h end)).
    unfold upd_arch. destruct (slab_get (w_archs w) ai) as [a|] eqn:Ha; [|now apply IH].
    rewrite (surjective_pairing (register_handler ai a h)), register_handler_fst, (reg_arch_static h h0 a Hs).
    rewrite (IH Hnd' _ (snd (register_handler ai a h)));
      [|exact (upd_key_get_self (w_hs w) hk _ h Hg)|exact (eq_trans (register_handler_static ai a h) Hs)].
    cbn [w_hs set_hs]. rewrite upd_by_key_twice, (regs_w_comm (fun w => set_hs w _)) by reflexivity. rewrite (regs_h_ext w _ (map fst L)); [reflexivity|].
    intros aj Hj. unfold arch_at. cbn [w_archs set_hs set_archs]. apply slab_get_set_neq. intros ->. contradiction.
Qed.

Lemma slab_iter_from_spec l : forall i0 ai a, In (ai, a) (slab_iter_from l i0) <-> (i0 <= ai /\ nget l (ai - i0) = Some (SOcc a)).
Proof.
  induction l as [|e t IH]; intros i0 ai a; cbn [slab_iter_from].
  - split; [intros []|intros [_ X]; discriminate].
  - pose proof (IH (i0 + 1) ai a) as Ht.
    destruct e as [a0|n]; cbn [In nget].
    + split.
      * intros [X|X]; [inversion X; subst; split; [lia|]; now rewrite N.sub_diag|]. apply Ht in X as [X1 X2]. split; [lia|].
        replace (ai - i0 =? 0) with false by (symmetry; apply N.eqb_neq; lia). now replace (N.pred (ai - i0)) with (ai - (i0 + 1)) by lia.
      * intros [X1 X2]. destruct (ai - i0 =? 0) eqn:E.
        -- apply N.eqb_eq in E. left. inversion X2; subst. f_equal. lia.
        -- right. apply Ht. apply N.eqb_neq in E. split; [lia|]. now replace (ai - (i0 + 1)) with (N.pred (ai - i0)) by lia.
    + split.
      * intros X. apply Ht in X as [X1 X2]. split; [lia|].
        replace (ai - i0 =? 0) with false by (symmetry; apply N.eqb_neq; lia). now replace (N.pred (ai - i0)) with (ai - (i0 + 1)) by lia.
      * intros [X1 X2]. destruct (ai - i0 =? 0) eqn:E; [discriminate|]. apply Ht. apply N.eqb_neq in E. split; [lia|]. now replace (ai - (i0 + 1)) with (N.pred (ai - i0)) by lia.
Qed.
Lemma slab_iter_from_nodup l : forall i0, NoDup (map fst (slab_iter_from l i0)).
Proof.
  induction l as [|e t IH]; intros i0; cbn [slab_iter_from]; [constructor|]. destruct e as [a0|n]; [|apply IH]. cbn [map fst]. constructor; [|apply IH].
  intros X. apply in_map_iff in X as ([ai a] & E & X). cbn [fst] in E. subst ai. apply slab_iter_from_spec in X as [X _]. lia.
Qed.
Lemma slab_iter_nodup s : NoDup (map fst (slab_iter s)).
Proof. apply slab_iter_from_nodup. Qed.
Lemma slab_iter_idx s ai : In ai (map fst (slab_iter s)) <-> slab_get s ai <> None.
Proof.
  unfold slab_iter, slab_get. split.
  - intros Hx. apply in_map_iff in Hx as ([aj a] & <- & Hx). apply slab_iter_from_spec in Hx as [_ Hx]. cbn [fst]. rewrite N.sub_0_r in Hx. now rewrite Hx.
  - intros H. destruct (nget (sl_entries s) ai) as [[a|]|] eqn:E; try (now contradiction H).
    apply in_map_iff. exists (ai, a). split; [reflexivity|]. apply slab_iter_from_spec. rewrite N.sub_0_r. split; [lia|exact E].
Qed.

(* Archetypes::register_handler *)
Definition reg_all_w (h0 : hinfo) (w : world) : world := regs_w h0 (map fst (slab_iter (w_archs w))) w.
Definition reg_all_h (w : world) (h0 : hinfo) : hinfo := regs_h w (map fst (slab_iter (w_archs w))) h0.

Lemma archs_register_handler_eq w hk h0 : sm_get hk (w_hs w) = Some h0 ->
  archs_register_handler w hk = set_hs (reg_all_w h0 w) (upd_by_key (w_hs w) hk (fun _ => reg_all_h w h0)).
Proof. intros Hg. exact (arh_fold_eq hk h0 (slab_iter (w_archs w)) (slab_iter_nodup _) w h0 Hg eq_refl). Qed.

Lemma reg_all_at h0 w j : arch_at (reg_all_w h0 w) j = option_map (reg_arch h0) (arch_at w j).
Proof.
  unfold reg_all_w. rewrite (regs_w_at h0 _ (slab_iter_nodup _)). destruct (existsb _ _) eqn:E; [reflexivity|].
  destruct (arch_at w j) eqn:Ha; [|reflexivity]. assert (X : existsb (N.eqb j) (map fst (slab_iter (w_archs w))) = true); [|congruence].
  apply existsb_exists. exists j. split; [|apply N.eqb_refl]. apply slab_iter_idx. unfold arch_at in Ha. congruence.
Qed.

Lemma upd_arch_eta w ai f : upd_arch w ai f = set_archs w (w_archs (upd_arch w ai f)).
Proof. unfold upd_arch. destruct (slab_get (w_archs w) ai); [reflexivity|now destruct w]. Qed.
Lemma regs_w_eta h0 l : forall w, regs_w h0 l w = set_archs w (w_archs (regs_w h0 l w)).
Proof.
  unfold regs_w. induction l as [|ai l IH]; intros w; cbn [fold_left]; [now destruct w|]. rewrite IH at 1. now rewrite (upd_arch_eta w ai) at 1.
Qed.
Lemma structure_upd_arch w ai f : (forall a, ashape (SOcc (f a)) = ashape (SOcc a)) -> structure (upd_arch w ai f) = structure w.
Proof.
  intros Hf. unfold upd_arch. destruct (slab_get (w_archs w) ai) as [a|] eqn:Ha; [|reflexivity].
  unfold structure. cbn [w_cby w_ents w_comps w_archs w_aby set_archs slab_set sl_entries sl_next]. do 3 f_equal.
  unfold slab_get in Ha. destruct (nget (sl_entries (w_archs w)) ai) as [[a0|]|] eqn:Hg; try discriminate. inversion Ha; subst a0.
  eapply map_ashape_nset; [exact Hg|apply Hf].
Qed.
Lemma structure_reg_all h0 w : structure (reg_all_w h0 w) = structure w.
Proof. unfold reg_all_w, regs_w. apply (fold_left_pres structure). intros w' ai. now apply structure_upd_arch. Qed.

Lemma archs_register_handler_cases w hk : archs_register_handler w hk =
  match sm_get hk (w_hs w) with
  | Some h0 => set_hs (reg_all_w h0 w) (upd_by_key (w_hs w) hk (fun _ => reg_all_h w h0))
  | None => w end.
Proof.
  destruct (sm_get hk (w_hs w)) eqn:E; [now apply archs_register_handler_eq|]. unfold archs_register_handler.
  induction (slab_iter (w_archs w)) as [|[ai x] L IH]; cbn [fold_left]; [reflexivity|]. rewrite E. now destruct (slab_get (w_archs w) ai).
Qed.
Lemma archs_register_handler_frame {T} (pi : world -> T) : (forall w x, pi (set_hs w x) = pi w) -> (forall w x, pi (set_archs w x) = pi w) ->
  forall w hk, pi (archs_register_handler w hk) = pi w.
Proof.
  intros H1 H2 w hk. rewrite archs_register_handler_cases. destruct (sm_get hk (w_hs w)); [|reflexivity]. unfold reg_all_w. now rewrite H1, regs_w_eta, H2.
Qed.

(* Archetype::new: the archetype is empty, so no handler is refreshed *)
Definition regs_a (hs : smap hinfo) (L : list (N * key)) (a : arch) : arch :=
  fold_left (fun a (p : N * key) => match sm_get (snd p) hs with Some h => reg_arch h a | None => a end) L a.

Lemma reg_fold_empty_eq ai (L : list (N * key)) hs : forall a, nlen (a_rows a) = 0 ->
  fold_left (fun '(a, hs) '(_, hk) =>
       match sm_get hk hs with
       | Some h => let '(a', h') := register_handler ai a h in (a', upd_by_key hs hk (fun _ => h'))
       | None => (a, hs) end) L (a, hs) = (regs_a hs L a, hs).
Proof.
  induction L as [|[o hk] L IH]; intros a H0; cbn [fold_left regs_a snd]; [reflexivity|].
  destruct (sm_get hk hs) as [h|] eqn:E; [|now apply IH].
  rewrite (surjective_pairing (register_handler ai a h)), register_handler_fst, register_handler_snd.
  replace (0 <? nlen (a_rows a)) with false by now rewrite H0. rewrite andb_false_r, (upd_by_key_same _ _ _ E). now apply IH.
Qed.

Lemma regs_a_cons hs p L a : regs_a hs (p :: L) a = regs_a hs L (match sm_get (snd p) hs with Some h => reg_arch h a | None => a end).
Proof. reflexivity. Qed.
Lemma regs_a_tables hs L : forall a, regs_a hs L a = set_tables a (a_refresh (regs_a hs L a)) (a_listeners (regs_a hs L a)).
Proof.
  induction L as [|p L IH]; intros a; [now destruct a|]. rewrite regs_a_cons. destruct (sm_get (snd p) hs) as [h|]; [|apply IH]. now rewrite IH at 1.
Qed.

Lemma create_arch_eq w cs ins rem :
  let ai := slab_vacant_key (w_archs w) in
  create_arch w cs ins rem =
  (ai, set_archs (set_aidx (set_comps w (fold_left (fun m c => upd_by_index m c (fun ci => mkC (c_tag ci) (c_member_of ci ++ [ai]) (c_ins ci) (c_rem ci))) cs (w_comps w)) (w_cby w))
                           (w_aby w ++ [(cs, ai)]) (w_auid w + 1))
                 (slab_insert (w_archs w) (regs_a (w_hs w) (w_horder w) (mkA (w_auid w) cs [] 0 0 ins rem [] [])))).
Proof. unfold create_arch. cbv zeta. cbn [w_horder w_hs set_comps]. now rewrite reg_fold_empty_eq. Qed.

Lemma insert_upd_spec {V} (f : key -> V) (m : smap V) k m' v : SmInv m -> insert_with f m = Some (k, m') ->
  sm_get k m = None /\ SmInv (upd_by_key m' k (fun _ => v)) /\ sm_get k (upd_by_key m' k (fun _ => v)) = Some v /\
  forall x, x <> k -> sm_get x (upd_by_key m' k (fun _ => v)) = sm_get x m.
Proof.
  intros S Ei. pose proof (insert_get_new f m k m' S Ei) as Hn. split; [exact (insert_get_fresh f m k m' S Ei)|]. split; [|split].
  - unfold upd_by_key. rewrite Hn. exact (upd_inv m' k _ _ (insert_inv _ _ _ _ S Ei) Hn).
  - exact (upd_key_get_self m' k _ _ Hn).
  - intros x Hne. rewrite upd_key_get_other by exact Hne. exact (insert_get_other f m k m' x S Ei Hne).
Qed.

Lemma entry_eq w1 (f : key -> hinfo) k hs gl hby hc ho : SmInv (w_hs w1) -> insert_with f (w_hs w1) = Some (k, hs) ->
  archs_register_handler (set_hreg w1 hs gl hby hc ho) k =
  set_hreg (reg_all_w (f k) w1) (upd_by_key hs k (fun _ => reg_all_h w1 (f k))) gl hby hc ho.
Proof.
  intros S Ei. rewrite (archs_register_handler_eq _ k (f k)) by exact (insert_get_new f (w_hs w1) k hs S Ei).
  unfold reg_all_w. cbn [w_archs w_hs set_hreg]. now rewrite (regs_w_comm (fun w => set_hreg w hs gl hby hc ho)) by reflexivity.
Qed.
