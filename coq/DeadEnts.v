(* DeadEnts.v : the id of a despawned entity never becomes valid again (C03), at world level: through every
   propagation, every handler behaviour and every later call - spawns that recycle the slot included.
   PE k w : the entity slot map satisfies its invariant and k is dead in it (SlotMap.Dead: the slot's generation is
   beyond k's, or the slot is retired).  The entity map only changes by slot-map insertion (spawn_all), slot-map
   removal (remove_entity, the archetype removal of remove_component) and location updates; each keeps PE.  No
   other invariant of the world is needed. *)
From Coq Require Import List NArith Bool Lia Sorted.
Import ListNotations.
Require Import EV.Base EV.ListN EV.Access EV.Query EV.SlotMap EV.Reserve EV.HList EV.Loop EV.World EV.StorageSpec EV.SlotMapGet
  EV.AccessProofs EV.ArchProofs EV.QueryProofs EV.WorldFrame EV.Layer EV.Store EV.Graph EV.Effects EV.Reach EV.RemoveComp EV.Member EV.Listen
  EV.ReserveW EV.Order EV.Fetch EV.NoUB EV.Sender EV.Users EV.DeadIds EV.Ledger EV.EvLedger EV.Quiet.
Open Scope N_scope.

(* a predicate of the entity map that slot-map insertions keep is kept by spawn_all *)
Lemma spawn_all_ents (P : world -> Prop) : (forall w w', w_ents w' = w_ents w -> P w -> P w') ->
  (forall f w k0 m', P w -> insert_with f (w_ents w) = Some (k0, m') -> P (set_ents w m')) -> forall w, P w -> P (res_world (spawn_all w)).
Proof.
  intros P_ents P_insert w. apply (spawn_all_keeps P); [|intros w1; now apply P_ents].
  intros w0 k ents' E HP. eapply P_ents; [|exact (P_insert _ w0 k ents' HP E)]. reflexivity.
Qed.

Section DeadEnts.
Variable k : key.
Definition PE (w : world) : Prop := SmInv (w_ents w) /\ Dead (w_ents w) k.

Lemma PE_ents w w' : w_ents w' = w_ents w -> PE w -> PE w'.
Proof. unfold PE. now intros ->. Qed.
Lemma PE_shape w w' : shape (w_ents w') = shape (w_ents w) -> PE w -> PE w'.
Proof. intros Hs [A B]. split; [eapply sview_inv; eauto|]. eapply Dead_gens; [|exact B]. now apply (gens_sview (fun _ : eloc => tt)). Qed.
Lemma PE_eo w w' : eo w' = eo w -> PE w -> PE w'.
Proof. intros H. apply PE_shape. exact (proj1 (eo_parts _ _ H)). Qed.
Lemma PE_insert f w k0 m' : PE w -> insert_with f (w_ents w) = Some (k0, m') -> PE (set_ents w m').
Proof. intros [A B] E. split; cbn [w_ents set_ents]; [eapply insert_inv; eauto|eapply dead_insert; eauto]. Qed.
Lemma PE_remove w k1 v m' : PE w -> sm_remove k1 (w_ents w) = Some (v, m') -> PE (set_ents w m').
Proof. intros [A B] E. split; cbn [w_ents set_ents]; [eapply remove_inv; eauto|eapply dead_remove; eauto]. Qed.

Lemma spawn_all_n_PE n : forall w, PE w -> PE (res_world (spawn_all_n n w)).
Proof. apply (spawn_all_n_keeps PE). intros w0 k0 ents' E HP. eapply PE_ents; [|exact (PE_insert _ w0 k0 ents' HP E)]. reflexivity. Qed.
Lemma spawn_all_PE w : PE w -> PE (res_world (spawn_all w)).
Proof. apply (spawn_all_ents PE PE_ents PE_insert). Qed.

Lemma remove_entity_PE w loc : PE w -> PE (res_world (remove_entity w loc)).
Proof. intros HP. destruct loc as [ai row]. apply remove_entity_eo; [exact PE_eo| |exact HP]. intros a e vals v m' _ _. now apply PE_remove. Qed.

Lemma builtin_effect_PE kind ev loc w : PE w -> PE (res_world (builtin_effect kind ev loc w)).
Proof.
  intros HP. apply (builtin_effect_keeps PE); [intros; eapply PE_eo; [apply eo_traverse_insert|exact HP]|intros; eapply PE_eo; [apply eo_traverse_remove|exact HP]|
    intros w1 d nw; apply PE_eo, eo_move_entity|apply spawn_all_PE|intros w1; apply remove_entity_PE|intros w1 a b; apply PE_ents; reflexivity|exact HP].
Qed.

Variable beh : hinfo -> logent -> N -> script.

Lemma PE_ro w w' : ro w' = ro w -> PE w -> PE w'.
Proof. intros H. apply PE_ents. now apply ro_ents. Qed.

Lemma deliver_one_PE it w : PE w -> PE (snd (fst (deliver_one beh it w))).
Proof.
  apply (sw_deliver_one beh _ (ro_swalks _ PE_ro (fun w => PE_ents _ _ (reserve_ents w))) (fun w' _ => PE w')); [auto|]. intros k0 info ev loc w1 _ _ _ H _. now apply builtin_effect_PE.
Qed.

Lemma flush_PE q w : PE w -> PE (res_world (flush beh q w)).
Proof.
  intros HP. refine (proj1 (flush_rule beh PE (fun _ _ => True) (fun _ => True) q w _ _ _ I HP (fun _ _ => I))).
  - intros it w0 HP0 _. split; [now apply deliver_one_PE|auto].
  - intros q0 w0 HP0. apply spawn_all_PE. eapply PE_eo; [apply eo_unwind_queue|exact HP0].
  - intros w0. apply PE_ents. reflexivity.
Qed.

Lemma rbind_PE {A B} (r : res A) (f : A -> world -> res B) :
  PE (res_world r) -> (forall a w1, PE w1 -> PE (res_world (f a w1))) -> PE (res_world (rbind r f)).
Proof. exact (rbind_K r f PE). Qed.
Lemma PE_ev_drop w t tag ev : PE w -> PE (ev_drop w t tag ev).
Proof. apply PE_eo, eo_ev_drop. Qed.

Lemma rc_step_PE cidx ctag w ai : PE w -> PE (rc_step cidx ctag w ai).
Proof.
  intros HP. apply rc_step_cases; [now intros _|]. intros a D _. apply remove_keys_ind; [|exact HP].
  intros k1 m v m' [A B] Er. split; [eapply remove_inv; eauto|eapply dead_remove; eauto].
Qed.
Lemma archs_remove_component_PE cidx ctag w l : PE w -> PE (archs_remove_component w cidx ctag l).
Proof. intros HP. rewrite archs_remove_component_unfold. apply (fold_left_invariant PE); [exact HP|]. intros w0 ai. apply rc_step_PE. Qed.

Definition PE_layer : Layer beh (fun _ => True).
Proof.
  apply (plain beh PE); [|intros q w _ HP _; now apply flush_PE]. intros b w w' Hp _ HP _. eapply PE_ents; [|exact HP].
  destruct Hp as [w w' Hq|w tag k0 m _ _|w tag k0 m _ _|w0 tag kind k0 m _ _ _ _|sh w c w1 k0 w3 _ _ Eh|w1 k0 h w2 Eh|k0 w w1 w2 info m _ _ _ _ _|k0 w w1 w2 info m _ _ _ _ _];
    try reflexivity.
  - exact (proj1 (proj2 (quiet_fields _ _ Hq))).
  - destruct kind; reflexivity.
  - exact (structure_ents _ _ (proj1 (handler_entry_structure sh c w1 k0 w3 Eh))).
  - destruct (handlers_remove_inv w1 k0 h w2 Eh) as (hs & _ & ->). reflexivity.
  - unfold tev_exit_world. destruct (e_kind info); reflexivity.
Defined.

Lemma PE_comp_exit : comp_exit_ok PE_layer.
Proof.
  intros k0 w w1 dk w2 w3 w4 ci w5 ci' m _ _ _ _ _ _ _ _ _ _ _ _ _ _ _ _ _ HP5 _ _. unfold comp_exit_world, refresh_cursor.
  eapply PE_ents; [reflexivity|]. apply archs_remove_component_PE. revert HP5. apply PE_ents. reflexivity.
Qed.

Lemma gev_PE fuel : forall tag w, PE w -> PE (res_world (add_global_event beh fuel tag w)) /\ forall ev, PE (res_world (send_global beh fuel tag ev w)).
Proof.
  intros tag w HP. destruct (gev_tri beh PE_layer fuel tag w HP) as [A B].
  split; [exact (proj1 (tri_J beh PE_layer _ _ _ A))|intros ev; exact (proj1 (tri_J beh PE_layer _ _ _ (B ev)))].
Qed.
Lemma send_global_PE tag ev w : PE w -> PE (res_world (send_global beh RFUEL tag ev w)).
Proof. intros HP. exact (proj2 (gev_PE RFUEL tag w HP) ev). Qed.
Lemma add_global_event_PE tag w : PE w -> PE (res_world (add_global_event beh RFUEL tag w)).
Proof. intros HP. exact (proj1 (gev_PE RFUEL tag w HP)). Qed.
Lemma add_component_PE tag w : PE w -> PE (res_world (add_component beh tag w)).
Proof. intros HP. exact (proj1 (tri_J beh PE_layer _ _ _ (add_component_tri beh PE_layer tag w HP))). Qed.
Lemma add_targeted_event_PE tag w : PE w -> PE (res_world (add_targeted_event beh tag w)).
Proof. intros HP. exact (proj1 (tri_J beh PE_layer _ _ _ (add_targeted_event_tri beh PE_layer tag w HP))). Qed.
Lemma send_to_PE tag target ev w : PE w -> PE (res_world (send_to beh tag target ev w)).
Proof. intros HP. exact (proj1 (tri_J beh PE_layer _ _ _ (send_to_tri beh PE_layer tag target ev w HP))). Qed.
Lemma resolve_query_PE q : forall w, PE w -> PE (res_world (resolve_query beh q w)).
Proof. intros w HP. exact (proj1 (tri_J beh PE_layer _ _ _ (resolve_query_tri beh PE_layer q w HP))). Qed.
Lemma register_set_PE evs : forall w, PE w -> PE (res_world (register_set beh evs w)).
Proof. intros w HP. exact (proj1 (tri_J beh PE_layer _ _ _ (register_set_tri beh PE_layer evs w HP))). Qed.
Lemma init_param_PE p c w : PE w -> PE (res_world (init_param beh p c w)).
Proof. intros HP. exact (proj1 (tri_J beh PE_layer _ _ _ (init_param_tri beh PE_layer p c w HP))). Qed.
Lemma init_params_PE ps : forall c w, PE w -> PE (res_world (init_params beh ps c w)).
Proof. intros c w HP. exact (proj1 (tri_J beh PE_layer _ _ _ (init_params_tri beh PE_layer ps c w HP))). Qed.
Lemma add_handler_PE sh w : PE w -> PE (res_world (add_handler beh sh w)).
Proof. intros HP. exact (proj1 (tri_J beh PE_layer _ _ _ (add_handler_tri beh PE_layer sh w HP))). Qed.
Lemma remove_handler_PE k0 w : PE w -> PE (res_world (remove_handler beh k0 w)).
Proof. intros HP. exact (proj1 (remove_handler_keeps beh PE_layer k0 w HP)). Qed.
Lemma remove_handlers_PE ks : forall w, PE w -> PE (res_world (remove_handlers beh ks w)).
Proof. intros w HP. exact (proj1 (remove_handlers_keeps beh PE_layer ks w HP)). Qed.
Lemma remove_global_event_PE k0 w : PE w -> PE (res_world (remove_global_event beh k0 w)).
Proof. intros HP. exact (proj1 (remove_global_event_keeps beh PE_layer k0 w HP)). Qed.
Lemma remove_targeted_event_PE k0 w : PE w -> PE (res_world (remove_targeted_event beh k0 w)).
Proof. intros HP. exact (proj1 (remove_targeted_event_keeps beh PE_layer k0 w HP)). Qed.
Lemma remove_tevents_PE ks : forall w, PE w -> PE (res_world (remove_tevents beh ks w)).
Proof. intros w HP. exact (proj1 (remove_tevents_keeps beh PE_layer ks w HP)). Qed.
Lemma remove_component_PE k0 w : PE w -> PE (res_world (remove_component beh k0 w)).
Proof. intros HP. exact (proj1 (remove_component_keeps beh PE_layer k0 w PE_comp_exit HP)). Qed.
Lemma op_spawn_PE w : PE w -> PE (res_world (op_spawn beh w)).
Proof. intros HP. exact (proj1 (tri_J beh PE_layer _ _ _ (op_spawn_tri beh PE_layer w HP))). Qed.
Lemma op_insert_PE e ktag w : PE w -> PE (res_world (op_insert beh e ktag w)).
Proof. intros HP. exact (proj1 (tri_J beh PE_layer _ _ _ (op_insert_tri beh PE_layer e ktag w HP))). Qed.
Theorem run_top_all_PE w o : PE w -> PE (run_top_all beh w o).
Proof. exact (run_top_all_keeps beh PE_layer PE_comp_exit w o). Qed.

(* once dead, dead for ever: through every later history of calls and every handler behaviour *)
Theorem dead_entity_stays_dead ops : forall w, PE w -> PE (fold_left (run_top_all beh) ops w).
Proof. intros w. exact (history_keeps beh PE_layer ops w PE_comp_exit). Qed.
End DeadEnts.

(* the id of a despawned entity never becomes valid again: in any world with a consistent entity map in which k was a
   live entity, once a delivery (or any call) leaves k dead - World::despawn, a Despawn sent by a handler, the
   removal of one of its component types - k is invalid in every later world *)
Theorem despawned_entity_id_never_valid_again (beh : hinfo -> logent -> N -> script) (k : key) (w : world) (ops : list top_all) :
  SmInv (w_ents w) -> Dead (w_ents w) k -> N.odd (snd k) = true ->
  sm_get k (w_ents (fold_left (run_top_all beh) ops w)) = None.
Proof. intros HS HD Hk. destruct (dead_entity_stays_dead k beh ops w (conj HS HD)) as [_ H]. now apply dead_get. Qed.

Lemma remove_entity_dead w ai row a e vals : SmInv (w_ents w) -> slab_get (w_archs w) ai = Some a -> nget (a_rows a) row = Some (e, vals) ->
  match remove_entity w (ai, row) with ROk _ w' => SmInv (w_ents w') /\ Dead (w_ents w') e | RFail _ _ => True end.
Proof.
  intros HS Ha Hrow. destruct (remove_entity_spec w ai row) as [a0 e0 vals0 v m' Ha0 Hr0 Er _| | | |]; try exact I.
  assert (a0 = a) by congruence. subst a0. assert (e0 = e) by congruence. subst e0. rewrite removed_eq.
  apply (PE_shape e (set_ents w m')); [apply shape_fixup|]. split; [eapply remove_inv; eauto|eapply remove_dead; eauto].
Qed.
