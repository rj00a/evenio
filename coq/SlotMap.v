(* SlotMap.v : src/slot_map.rs with explicit u32 generation arithmetic *)
From Coq Require Import List NArith Bool Lia PeanoNat.
Import ListNotations.
Require Import EV.Base EV.ListN.
Open Scope N_scope.

Definition wrap_succ (g : N) : N := (g + 1) mod TWO32.

Lemma wrap_succ_nz g : g < TWO32 -> wrap_succ g <> 0 -> wrap_succ g = g + 1 /\ g + 1 < TWO32.
Proof.
  unfold wrap_succ. intros Hlt Hnz. destruct (N.eq_dec (g + 1) TWO32) as [E|E].
  - rewrite E, N.mod_same in Hnz by discriminate. now elim Hnz.
  - split; [apply N.mod_small|]; lia.
Qed.
Lemma wrap_succ_gt g : g < TWO32 -> wrap_succ g = 0 \/ g < wrap_succ g.
Proof. intros Hlt. destruct (N.eq_dec (wrap_succ g) 0) as [Z|Hnz]; [now left|right]. destruct (wrap_succ_nz g Hlt Hnz) as [-> _]. lia. Qed.
Lemma wrap_succ_even g : g < TWO32 -> N.odd g = true -> N.even (wrap_succ g) = true.
Proof.
  intros Hlt Ho. destruct (N.eq_dec (wrap_succ g) 0) as [->|Hnz]; [reflexivity|].
  destruct (wrap_succ_nz g Hlt Hnz) as [-> _]. now rewrite N.add_1_r, N.even_succ.
Qed.

Section SM.
Variable V : Type.
Record slot := mkSlot { gen : N; link : N; val : option V }.   (* link = union.next_free, val = union.value *)
Record smap := mkSm { slots : list slot; next_free : N; sm_len : N }.

(* indices stay in N: the model must run with next_free = U32MAX without building a unary number *)
Fixpoint sget (l : list slot) (i : N) : option slot :=
  match l with
  | [] => None
  | h :: t => if i =? 0 then Some h else sget t (N.pred i)
  end.
Fixpoint supd (l : list slot) (i : N) (s : slot) : list slot :=
  match l with
  | [] => []
  | h :: t => if i =? 0 then s :: t else h :: supd t (N.pred i) s
  end.
(* proof-side view through nth_error *)
Fixpoint upd (l : list slot) (i : nat) (s : slot) : list slot :=
  match l, i with
  | [], _ => []
  | _ :: t, O => s :: t
  | h :: t, S j => h :: upd t j s
  end.

Definition sm_empty : smap := mkSm [] U32MAX 0.

Definition insert_with (f : key -> V) (m : smap) : option (key * smap) :=
  match sget (slots m) (next_free m) with
  | Some s =>
      let k := (next_free m, gen s + 1) in
      Some (k, mkSm (supd (slots m) (next_free m) (mkSlot (gen s + 1) (link s) (Some (f k))))
                    (link s) (sm_len m + 1))
  | None =>
      let index := N.of_nat (length (slots m)) in
      if index =? U32MAX then None
      else let k := (index, 1) in
           Some (k, mkSm (slots m ++ [mkSlot 1 0 (Some (f k))]) (next_free m) (sm_len m + 1))
  end.

Definition sm_remove (k : key) (m : smap) : option (V * smap) :=
  match sget (slots m) (fst k) with
  | None => None
  | Some s =>
      if gen s =? snd k then
        match val s with
        | None => None
        | Some v =>
            let g' := wrap_succ (gen s) in
            if g' =? 0
            then Some (v, mkSm (supd (slots m) (fst k) (mkSlot 0 (link s) None)) (next_free m) (sm_len m - 1))
            else Some (v, mkSm (supd (slots m) (fst k) (mkSlot g' (next_free m) None)) (fst k) (sm_len m - 1))
        end
      else None
  end.

Definition sm_get (k : key) (m : smap) : option V :=
  match sget (slots m) (fst k) with
  | Some s => if gen s =? snd k then val s else None
  | None => None
  end.

Lemma sget_nth l : forall i, sget l i = nth_error l (N.to_nat i).
Proof. exact (nget_nth l). Qed.
Lemma supd_upd l : forall i s, supd l i s = upd l (N.to_nat i) s.
Proof.
  induction l as [|h t IH]; intros i s; cbn [supd].
  - now destruct (N.to_nat i).
  - destruct (N.eqb_spec i 0) as [->|Hn]; [reflexivity|]. rewrite IH.
    replace (N.to_nat i) with (S (N.to_nat (N.pred i))) by lia. reflexivity.
Qed.
Lemma upd_length l : forall i s, length (upd l i s) = length l.
Proof. induction l as [|h t IH]; intros [|i] s; cbn; auto. Qed.
Lemma nth_upd_eq l : forall i s, (i < length l)%nat -> nth_error (upd l i s) i = Some s.
Proof. induction l as [|h t IH]; intros [|i] s H; cbn in *; try lia; auto. apply IH. lia. Qed.
Lemma nth_upd_neq l : forall i j s, i <> j -> nth_error (upd l i s) j = nth_error l j.
Proof. induction l as [|h t IH]; intros [|i] [|j] s H; cbn; auto; try congruence. Qed.
Lemma supd_length l i s : length (supd l i s) = length l.
Proof. rewrite supd_upd. apply upd_length. Qed.

(* [sget] and [supd] have the bodies of [nget] and [nset] at type [slot], so the lemmas of ListN.v
   hold of them by conversion *)
Lemma sget_supd_eq l i s s0 : sget l i = Some s0 -> sget (supd l i s) i = Some s.
Proof. intros H. exact (nget_nset_eq l i s (nget_some_lt l i s0 H)). Qed.
Lemma sget_supd_neq l i j s : i <> j -> sget (supd l i s) j = sget l j.
Proof. exact (nget_nset_neq l i j s). Qed.
Lemma sget_supd_inv l i s j s0 : sget (supd l i s) j = Some s0 -> s0 = s \/ sget l j = Some s0.
Proof.
  intros H. change (nget (nset l i s) j = Some s0) in H. rewrite nget_nset in H.
  destruct (j =? i); [|now right]. destruct (i <? nlen l); inversion H. now left.
Qed.
Lemma sget_lt l i s : sget l i = Some s -> i < N.of_nat (length l).
Proof. exact (nget_some_lt l i s). Qed.
Lemma sget_ge l i : N.of_nat (length l) <= i -> sget l i = None.
Proof. exact (nget_ge_none l i). Qed.
Lemma sget_app_neq l x i : i <> N.of_nat (length l) -> sget (l ++ [x]) i = sget l i.
Proof.
  intros Hne. destruct (N.lt_ge_cases i (N.of_nat (length l))) as [L|G]; [exact (nget_app_l l [x] i L)|].
  rewrite !sget_ge; [reflexivity|lia|rewrite app_length; cbn [length]; lia].
Qed.
Lemma sget_app_old l x i s : sget l i = Some s -> sget (l ++ [x]) i = Some s.
Proof. exact (nget_app_some l [x] i s). Qed.
Lemma sget_app_inv l x i s : sget (l ++ [x]) i = Some s -> sget l i = Some s \/ (i = N.of_nat (length l) /\ s = x).
Proof. exact (nget_snoc_inv l x i s). Qed.

(* a successful removal rewrites the slot of the key: it becomes vacant with the next generation; if that
   wraps to 0 the slot is retired (it joins no free chain), otherwise it becomes the head of the free chain *)
Lemma sm_remove_spec k m v m' : sm_remove k m = Some (v, m') -> exists s s',
  sget (slots m) (fst k) = Some s /\ gen s = snd k /\ val s = Some v /\
  gen s' = wrap_succ (gen s) /\ val s' = None /\
  slots m' = supd (slots m) (fst k) s' /\ sm_len m' = sm_len m - 1 /\
  (gen s' = 0 /\ next_free m' = next_free m \/ gen s' <> 0 /\ link s' = next_free m /\ next_free m' = fst k).
Proof.
  unfold sm_remove. destruct (sget (slots m) (fst k)) as [s|]; [|discriminate].
  destruct (N.eqb_spec (gen s) (snd k)) as [Eg|]; [|discriminate]. destruct (val s) as [v0|] eqn:Ev; [|discriminate].
  destruct (N.eqb_spec (wrap_succ (gen s)) 0) as [Ew|Ew]; intros H; inversion H; subst.
  - exists s, (mkSlot 0 (link s) None). cbn [gen val link slots next_free sm_len]. rewrite Ew. auto 12.
  - exists s, (mkSlot (wrap_succ (gen s)) (next_free m) None). cbn [gen val link slots next_free sm_len]. auto 12.
Qed.

Inductive chain (l : list slot) : N -> list N -> Prop :=
| ch_nil : chain l U32MAX []
| ch_cons i s rest : sget l i = Some s -> N.even (gen s) = true -> gen s <> 0 ->
                     chain l (link s) rest -> chain l i (i :: rest).

Definition slot_ok (s : slot) : Prop := gen s < TWO32 /\ (N.odd (gen s) = true <-> val s <> None).
Definition SmInv (m : smap) : Prop :=
  (exists c, chain (slots m) (next_free m) c /\ NoDup c) /\
  (forall i s, sget (slots m) i = Some s -> slot_ok s) /\
  N.of_nat (length (slots m)) <= U32MAX.

Lemma chain_supd_notin l i s : forall h c, chain l h c -> ~ In i c -> chain (supd l i s) h c.
Proof.
  intros h c H. induction H as [|j sj rest Hg He Hn Hc IH]; intros Hin; [constructor|].
  econstructor; eauto.
  - rewrite sget_supd_neq; eauto. intros ->. apply Hin. now left.
  - apply IH. intros X. apply Hin. now right.
Qed.
Lemma chain_app l x : forall h c, chain l h c -> chain (l ++ [x]) h c.
Proof. intros h c H. induction H; [constructor|econstructor; eauto using sget_app_old]. Qed.
Lemma chain_members_even l : forall h c, chain l h c -> forall i, In i c -> exists s, sget l i = Some s /\ N.even (gen s) = true.
Proof. intros h c H. induction H as [|j sj rest Hg He Hn Hc IH]; intros i Hi; [destruct Hi|]. destruct Hi as [<-|Hi]; eauto. Qed.
Lemma chain_head l h c : N.of_nat (length l) <= U32MAX -> chain l h c -> forall s, sget l h = Some s ->
  exists rest, c = h :: rest /\ N.even (gen s) = true /\ gen s <> 0 /\ chain l (link s) rest.
Proof.
  intros Hb H s Hs. destruct H as [|j sj rest Hg He Hn Hc].
  - apply sget_lt in Hs. lia.
  - rewrite Hg in Hs. inversion Hs; subst. eauto.
Qed.

Lemma even_succ_odd g : N.even g = true -> N.odd (g + 1) = true.
Proof. intros H. rewrite N.add_1_r, N.odd_succ. exact H. Qed.
Lemma odd_not_even g : N.odd g = true -> N.even g = false.
Proof. intros H. rewrite <- N.negb_odd, H. reflexivity. Qed.

(* parity ties the two together: the slots on a free chain are vacant, so an occupied slot is on none *)
Lemma chain_vacant m h c i s : SmInv m -> chain (slots m) h c -> In i c -> sget (slots m) i = Some s -> val s = None.
Proof.
  intros (_ & Hok & _) Hc Hin Hs. destruct (chain_members_even _ _ _ Hc _ Hin) as (s' & Hs' & He).
  rewrite Hs in Hs'. inversion Hs'; subst s'. destruct (Hok _ _ Hs) as [_ Hodd].
  destruct (val s) eqn:Ev; [|reflexivity]. rewrite odd_not_even in He; [discriminate|]. apply Hodd. discriminate.
Qed.

(* a successful insertion recycles the head of the free chain with the next generation, or, when the
   chain is empty, pushes a slot of generation 1 *)
Lemma insert_with_spec f m k m' : SmInv m -> insert_with f m = Some (k, m') ->
  exists lk, let s' := mkSlot (snd k) lk (Some (f k)) in
  sm_len m' = sm_len m + 1 /\ sget (slots m') (fst k) = Some s' /\
  ((exists s, sget (slots m) (fst k) = Some s /\ val s = None /\ gen s <> 0 /\ snd k = gen s + 1 /\
              slots m' = supd (slots m) (fst k) s')
   \/ (fst k = N.of_nat (length (slots m)) /\ snd k = 1 /\ slots m' = slots m ++ [s'])).
Proof.
  intros Hi H. pose proof Hi as ((c & Hc & _) & _ & Hb). unfold insert_with in H.
  destruct (sget (slots m) (next_free m)) as [s|] eqn:Es.
  - inversion H; subst; clear H. destruct (chain_head _ _ _ Hb Hc _ Es) as (rest & -> & _ & Hnz & _).
    exists (link s). cbn [fst snd slots sm_len]. split; [reflexivity|]. split; [eapply sget_supd_eq; eauto|].
    left. exists s. repeat split; auto. eapply chain_vacant; eauto. now left.
  - destruct (N.of_nat (length (slots m)) =? U32MAX); [discriminate|]. inversion H; subst; clear H.
    exists 0. cbn [fst snd slots sm_len]. split; [reflexivity|]. split; [apply (nget_snoc_last (slots m))|auto].
Qed.

Lemma insert_inv f m k m' : SmInv m -> insert_with f m = Some (k, m') -> SmInv m'.
Proof.
  intros ((c & Hc & Hnd) & Hok & Hb) H. unfold insert_with in H.
  destruct (sget (slots m) (next_free m)) as [s|] eqn:Es.
  - inversion H; subst; clear H. unfold SmInv; cbn [slots next_free sm_len].
    destruct (chain_head _ _ _ Hb Hc _ Es) as (rest & -> & Hev & Hnz & Hrest).
    inversion Hnd; subst. rewrite supd_length. split; [|split; [|exact Hb]].
    + exists rest. split; [apply chain_supd_notin; auto|auto].
    + intros j s' Hj. apply sget_supd_inv in Hj as [->|Hj]; [|eauto]. split; cbn.
      * destruct (Hok _ _ Es) as [Hlt _]. assert (gen s <> U32MAX). { intros E. rewrite E in Hev. discriminate. } unfold TWO32, U32MAX in *. lia.
      * split; [discriminate|intros _; now apply even_succ_odd].
  - destruct (N.of_nat (length (slots m)) =? U32MAX) eqn:El; [discriminate|]. apply N.eqb_neq in El.
    inversion H; subst; clear H. unfold SmInv; cbn [slots next_free sm_len]. split; [|split].
    + exists c. split; [now apply chain_app|auto].
    + intros j s' Hj. apply sget_app_inv in Hj. destruct Hj as [Hj|[_ ->]]; eauto.
      split; cbn; [unfold TWO32; lia|split; [discriminate|reflexivity]].
    + rewrite app_length. cbn. lia.
Qed.

Lemma remove_inv k m v m' : SmInv m -> sm_remove k m = Some (v, m') -> SmInv m'.
Proof.
  intros Hi H. pose proof Hi as ((c & Hc & Hnd) & Hok & Hb).
  destruct (sm_remove_spec _ _ _ _ H) as (s & s' & Hs & _ & Hv & Hg & Hv' & Hsl & _ & Hnf).
  destruct (Hok _ _ Hs) as [Hlt Hodd].
  assert (He : N.even (gen s') = true). { rewrite Hg. apply wrap_succ_even; [exact Hlt|]. apply Hodd. congruence. }
  assert (Hnotin : ~ In (fst k) c). { intros Hin. rewrite (chain_vacant _ _ _ _ _ Hi Hc Hin Hs) in Hv. discriminate. }
  unfold SmInv. rewrite Hsl, supd_length. split; [|split; [|exact Hb]].
  - destruct Hnf as [[_ ->]|(Hnz & Hl & ->)]; [exists c; split; [apply chain_supd_notin|]; auto|].
    exists (fst k :: c). split; [|constructor; auto]. econstructor; [eapply sget_supd_eq; eauto|exact He|exact Hnz|].
    rewrite Hl. apply chain_supd_notin; auto.
  - intros j s0 Hj. apply sget_supd_inv in Hj as [->|Hj]; [|eauto]. split.
    + rewrite Hg. apply N.mod_lt. discriminate.
    + rewrite Hv', <- N.negb_even, He. split; [discriminate|congruence].
Qed.

Lemma empty_inv : SmInv sm_empty.
Proof. split; [|split]; cbn. - exists []. split; constructor. - intros i s H. discriminate. - unfold U32MAX; lia. Qed.

Definition gen_mono (m m' : smap) : Prop :=
  forall j s, sget (slots m) j = Some s ->
  exists s', sget (slots m') j = Some s' /\ (gen s' = 0 \/ gen s <> 0 /\ gen s <= gen s').

Lemma gen_mono_supd l i s s' : sget l i = Some s -> gen s' = 0 \/ gen s <> 0 /\ gen s <= gen s' ->
  forall j sj, sget l j = Some sj ->
  exists sj', sget (supd l i s') j = Some sj' /\ (gen sj' = 0 \/ gen sj <> 0 /\ gen sj <= gen sj').
Proof.
  intros Hs Hg j sj Hj. destruct (N.eq_dec i j) as [<-|Hne].
  - rewrite Hs in Hj. inversion Hj; subst sj. exists s'. split; [eapply sget_supd_eq; eauto|exact Hg].
  - exists sj. split; [now rewrite sget_supd_neq|lia].
Qed.
Lemma insert_gen_mono f m k m' : SmInv m -> insert_with f m = Some (k, m') -> gen_mono m m'.
Proof.
  intros Hi H. unfold gen_mono.
  destruct (insert_with_spec _ _ _ _ Hi H) as (lk & _ & _ & [(s & Hs & _ & Hnz & Hg & ->)|(_ & _ & ->)]).
  - apply (gen_mono_supd _ _ s); [exact Hs|cbn [gen]; lia].
  - intros j s Hs. exists s. split; [now apply sget_app_old|lia].
Qed.
Lemma remove_gen_mono k m v m' : SmInv m -> sm_remove k m = Some (v, m') -> gen_mono m m'.
Proof.
  intros (_ & Hok & _) H. unfold gen_mono.
  destruct (sm_remove_spec _ _ _ _ H) as (s & s' & Hs & _ & Hv & Hg & _ & -> & _).
  apply (gen_mono_supd _ _ s); [exact Hs|]. destruct (Hok _ _ Hs) as [Hlt Hodd].
  assert (gen s <> 0). { intros Z. rewrite Z in Hodd. destruct Hodd as [_ Ho]. discriminate Ho. congruence. }
  rewrite Hg. destruct (wrap_succ_gt _ Hlt); lia.
Qed.

(* history: every key ever issued stays "covered" by its slot's generation *)
Definition covered (g kg : N) : Prop := g = 0 \/ kg <= g.
Definition Hist (m : smap) (issued : list key) : Prop :=
  forall k, In k issued -> exists s, sget (slots m) (fst k) = Some s /\ covered (gen s) (snd k).

Lemma Hist_mono m m' issued : gen_mono m m' -> Hist m issued -> Hist m' issued.
Proof.
  intros Hm Hh k Hin. destruct (Hh k Hin) as (s & Hs & Hcov). destruct (Hm _ _ Hs) as (s' & Hs' & Hg).
  exists s'. split; [exact Hs'|]. unfold covered in *. lia.
Qed.

Theorem sm_fresh f m issued k m' :
  SmInv m -> Hist m issued -> insert_with f m = Some (k, m') ->
  ~ In k issued /\ Hist m' (k :: issued) /\ sm_get k m' = Some (f k).
Proof.
  intros Hi Hh H. destruct (insert_with_spec _ _ _ _ Hi H) as (lk & _ & Hnew & Hcase). split; [|split].
  - intros Hin. destruct (Hh _ Hin) as (s0 & Hs0 & Hcov). destruct Hcase as [(s & Hs & _ & Hnz & Hg & _)|(Hl & _)].
    + rewrite Hs in Hs0. inversion Hs0; subst s0. destruct Hcov; [congruence|lia].
    + apply sget_lt in Hs0. lia.
  - intros k' [<-|Hin]; [eexists; split; [exact Hnew|right; cbn [gen]; lia]|].
    exact (Hist_mono _ _ _ (insert_gen_mono _ _ _ _ Hi H) Hh k' Hin).
  - unfold sm_get. rewrite Hnew. cbn [gen val]. now rewrite N.eqb_refl.
Qed.

Lemma remove_hist k m v m' issued : SmInv m -> Hist m issued -> sm_remove k m = Some (v, m') -> Hist m' issued.
Proof. intros Hi Hh H. exact (Hist_mono _ _ _ (remove_gen_mono _ _ _ _ Hi H) Hh). Qed.

(* a removed key never becomes valid again, across wrap-around and retirement *)
Definition Dead (m : smap) (k : key) : Prop :=
  exists s, sget (slots m) (fst k) = Some s /\ (gen s = 0 \/ snd k < gen s).

Lemma dead_get m k : N.odd (snd k) = true -> Dead m k -> sm_get k m = None.
Proof.
  intros Hk (s & Hs & Hd). unfold sm_get. rewrite Hs. destruct (gen s =? snd k) eqn:E; [|reflexivity].
  apply N.eqb_eq in E. destruct Hd as [Z|L]; [|lia]. rewrite <- E, Z in Hk. discriminate.
Qed.

Lemma Dead_mono m m' k : gen_mono m m' -> Dead m k -> Dead m' k.
Proof. intros Hm (s & Hs & Hd). destruct (Hm _ _ Hs) as (s' & Hs' & Hg). exists s'. split; [exact Hs'|lia]. Qed.

Lemma remove_dead k m v m' : SmInv m -> sm_remove k m = Some (v, m') -> Dead m' k.
Proof.
  intros (_ & Hok & _) H. destruct (sm_remove_spec _ _ _ _ H) as (s & s' & Hs & Hk & _ & Hg & _ & Hsl & _).
  exists s'. split; [rewrite Hsl; eapply sget_supd_eq; eauto|]. rewrite Hg, <- Hk. exact (wrap_succ_gt _ (proj1 (Hok _ _ Hs))).
Qed.

Lemma dead_insert f m k0 m' k : SmInv m -> Dead m k -> insert_with f m = Some (k0, m') -> Dead m' k.
Proof. intros Hi Hd H. exact (Dead_mono _ _ _ (insert_gen_mono _ _ _ _ Hi H) Hd). Qed.

Lemma dead_remove m k1 v m' k : SmInv m -> Dead m k -> sm_remove k1 m = Some (v, m') -> Dead m' k.
Proof. intros Hi Hd H. exact (Dead_mono _ _ _ (remove_gen_mono _ _ _ _ Hi H) Hd). Qed.

Inductive sm_op := OIns (f : key -> V) | ORem (k : key).
Definition sm_step (st : smap * list key) (o : sm_op) : smap * list key :=
  match o with
  | OIns f => match insert_with f (fst st) with Some (k, m') => (m', k :: snd st) | None => st end
  | ORem k => match sm_remove k (fst st) with Some (_, m') => (m', snd st) | None => st end
  end.

Lemma sm_fold_inv (P : smap -> list key -> Prop) :
  (forall f m iss k m', SmInv m -> P m iss -> insert_with f m = Some (k, m') -> P m' (k :: iss)) ->
  (forall k m iss v m', SmInv m -> P m iss -> sm_remove k m = Some (v, m') -> P m' iss) ->
  forall ops st, SmInv (fst st) -> P (fst st) (snd st) ->
  let st' := fold_left sm_step ops st in SmInv (fst st') /\ P (fst st') (snd st').
Proof.
  intros Hins Hrem ops st Hi HP. apply (fold_left_invariant (fun st => SmInv (fst st) /\ P (fst st) (snd st))); [exact (conj Hi HP)|].
  intros [m iss] o [Hi' HP']. cbn [fst snd] in Hi', HP'. destruct o as [f|k]; cbn [sm_step fst snd];
    [destruct (insert_with f m) as [[k m']|] eqn:E|destruct (sm_remove k m) as [[v m']|] eqn:E];
    cbn [fst snd]; eauto using insert_inv, remove_inv.
Qed.

Theorem sm_all_keys_distinct ops :
  let st := fold_left sm_step ops (sm_empty, []) in SmInv (fst st) /\ Hist (fst st) (snd st) /\ NoDup (snd st).
Proof.
  apply (sm_fold_inv (fun m iss => Hist m iss /\ NoDup iss)); cbn [fst snd].
  - intros f m iss k m' Hi [Hh Hn] E. destruct (sm_fresh _ _ _ _ _ Hi Hh E) as (Hf & Hh' & _). split; [exact Hh'|now constructor].
  - intros k m iss v m' Hi [Hh Hn] E. split; [eapply remove_hist; eauto|exact Hn].
  - apply empty_inv.
  - split; [intros k []|constructor].
Qed.

Theorem sm_never_again k m v m' ops :
  N.odd (snd k) = true -> SmInv m -> sm_remove k m = Some (v, m') ->
  sm_get k (fst (fold_left sm_step ops (m', []))) = None.
Proof.
  intros Hk Hi Hr. apply dead_get; [exact Hk|].
  apply (sm_fold_inv (fun m _ => Dead m k)); cbn [fst].
  - intros f m0 _ k0 m1 Hi0 Hd. now apply dead_insert.
  - intros k1 m0 _ v1 m1 Hi0 Hd. now apply dead_remove.
  - exact (remove_inv _ _ _ _ Hi Hr).
  - exact (remove_dead _ _ _ _ Hi Hr).
Qed.
End SM.
Arguments sget {V}.
Arguments upd {V}.
Arguments supd {V}.
Arguments sm_empty {V}.
Arguments insert_with {V}.
Arguments sm_remove {V}.
Arguments sm_get {V}.
Arguments upd_length {V}.
Arguments nth_upd_eq {V}.
Arguments nth_upd_neq {V}.
Arguments supd_length {V}.
Arguments sget_supd_inv {V}.
Arguments sget_ge {V}.
Arguments sget_app_neq {V}.
Arguments sm_remove_spec {V}.
Arguments chain_vacant {V}.
Arguments insert_with_spec {V}.
Arguments gen_mono {V}.
Arguments gen_mono_supd {V}.
Arguments insert_gen_mono {V}.
Arguments remove_gen_mono {V}.
Arguments Hist_mono {V}.
Arguments Dead_mono {V}.
Arguments sm_fold_inv {V}.
Arguments sget_supd_eq {V}.
Arguments sget_supd_neq {V}.
Arguments sget_lt {V}.
Arguments sget_app_old {V}.
Arguments sget_app_inv {V}.
Arguments chain {V}.
Arguments slot_ok {V}.
Arguments SmInv {V}.
Arguments chain_supd_notin {V}.
Arguments chain_app {V}.
Arguments chain_members_even {V}.
Arguments chain_head {V}.
Arguments insert_inv {V}.
Arguments remove_inv {V}.
Arguments empty_inv {V}.
Arguments Hist {V}.
Arguments sm_fresh {V}.
Arguments remove_hist {V}.
Arguments Dead {V}.
Arguments dead_get {V}.
Arguments remove_dead {V}.
Arguments dead_insert {V}.
Arguments dead_remove {V}.
Arguments sm_op {V}.
Arguments sm_step {V}.
Arguments sm_all_keys_distinct {V}.
Arguments sm_never_again {V}.
Arguments mkSlot {V}.
Arguments gen {V}.
Arguments link {V}.
Arguments val {V}.
Arguments mkSm {V}.
Arguments slots {V}.
Arguments next_free {V}.
Arguments sm_len {V}.
Arguments ch_nil {V}.
Arguments ch_cons {V}.
Arguments OIns {V}.
Arguments ORem {V}.
Check sm_all_keys_distinct. Check sm_never_again.
Print Assumptions sm_all_keys_distinct. Print Assumptions sm_never_again.
