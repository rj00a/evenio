(* Aliasing.v : the access checker is exact (T2).
   For every query expression: the access expression built by `init` contains a Conflict
   literal iff there is an archetype on which the query matches and hands out a mutable
   reference to some component together with another reference to the same component.
   Over the tables regenerated from the running implementation. *)
From Coq Require Import List NArith Bool Lia Sorted.
Import ListNotations.
Require Import EV.Base EV.Access EV.AccessProofs EV.Query EV.QueryProofs.
Open Scope N_scope.

Inductive lvl := LNone | LRead | LWrite | LConf.
Definition lvl_join (a b : lvl) : lvl :=
  match a, b with
  | LNone, x | x, LNone => x
  | LRead, LRead => LRead
  | _, _ => LConf
  end.
Definition lvl_le (a b : lvl) : bool :=
  match a, b with
  | LNone, _ => true
  | LRead, (LRead | LConf) => true
  | LWrite, (LWrite | LConf) => true
  | LConf, LConf => true
  | _, _ => false
  end.
Lemma lvl_join_comm a b : lvl_join a b = lvl_join b a. Proof. destruct a, b; reflexivity. Qed.
Lemma lvl_join_assoc a b c : lvl_join a (lvl_join b c) = lvl_join (lvl_join a b) c. Proof. destruct a, b, c; reflexivity. Qed.
Lemma lvl_join_none_r a : lvl_join a LNone = a. Proof. destruct a; reflexivity. Qed.
Lemma lvl_le_refl a : lvl_le a a = true. Proof. destruct a; reflexivity. Qed.
Lemma lvl_le_trans a b c : lvl_le a b = true -> lvl_le b c = true -> lvl_le a c = true.
Proof. destruct a, b, c; cbn; congruence. Qed.
Lemma lvl_le_join_l a b : lvl_le a (lvl_join a b) = true. Proof. destruct a, b; reflexivity. Qed.
Lemma lvl_le_join_r a b : lvl_le b (lvl_join a b) = true. Proof. destruct a, b; reflexivity. Qed.
Lemma lvl_le_conf a : lvl_le LConf a = true -> a = LConf. Proof. destruct a; cbn; congruence. Qed.
Lemma lvl_le_none a : lvl_le a LNone = true -> a = LNone. Proof. destruct a; cbn; congruence. Qed.
Lemma lvl_join_none_l a : lvl_join LNone a = a. Proof. destruct a; reflexivity. Qed.
Lemma lvl_join_mono_l a a' b : lvl_le a a' = true -> lvl_le (lvl_join a b) (lvl_join a' b) = true.
Proof. destruct a, a', b; cbn; congruence. Qed.
Lemma lvl_join_mono a b a' b' : lvl_le a a' = true -> lvl_le b b' = true -> lvl_le (lvl_join a b) (lvl_join a' b') = true.
Proof.
  intros Ha Hb. apply (lvl_le_trans _ (lvl_join a' b)); [now apply lvl_join_mono_l|].
  rewrite (lvl_join_comm a' b), (lvl_join_comm a' b'). now apply lvl_join_mono_l.
Qed.
Lemma lvl_join_swap a b c : lvl_join a (lvl_join b c) = lvl_join b (lvl_join a c).
Proof. now rewrite lvl_join_assoc, (lvl_join_comm a), <- lvl_join_assoc. Qed.
Lemma lvl_join_cases a b : lvl_join a b = a \/ lvl_join a b = b \/ lvl_join a b = LConf.
Proof. destruct a, b; cbn; auto. Qed.
Lemma lvl_conf_join_l a b : a = LConf -> lvl_join a b = LConf. Proof. intros ->. now destruct b. Qed.
Lemma lvl_conf_join_r a b : b = LConf -> lvl_join a b = LConf. Proof. intros ->. now destruct a. Qed.

Definition acc_lvl (x : cacc) : lvl :=
  match x with With | Not => LNone | Read => LRead | ReadWrite => LWrite | Conflict => LConf end.
Definition case_lvl (cs : case) (c : N) : lvl :=
  fold_right (fun p acc => if fst p =? c then lvl_join (acc_lvl (snd p)) acc else acc) LNone cs.
Definition ref_lvl (m : bool) : lvl := if m then LWrite else LRead.
Definition refs_lvl (rs : list (N * bool)) (c : N) : lvl :=
  fold_right (fun p acc => if fst p =? c then lvl_join (ref_lvl (snd p)) acc else acc) LNone rs.

(* a mutable reference to a component together with another reference to it *)
Definition aliasing (rs : list (N * bool)) : Prop := exists c, refs_lvl rs c = LConf.

Lemma refs_lvl_cons i m x c : refs_lvl ((i, m) :: x) c = if i =? c then lvl_join (ref_lvl m) (refs_lvl x c) else refs_lvl x c.
Proof. reflexivity. Qed.
Lemma case_lvl_cons i a x c : case_lvl ((i, a) :: x) c = if i =? c then lvl_join (acc_lvl a) (case_lvl x c) else case_lvl x c.
Proof. reflexivity. Qed.
Lemma refs_lvl_app x y c : refs_lvl (x ++ y) c = lvl_join (refs_lvl x c) (refs_lvl y c).
Proof.
  induction x as [|[i m] x IH].
  - change (refs_lvl [] c) with LNone. now rewrite lvl_join_none_l.
  - change (((i, m) :: x) ++ y) with ((i, m) :: (x ++ y)). rewrite !refs_lvl_cons.
    destruct (i =? c); [now rewrite IH, lvl_join_assoc|exact IH].
Qed.

(* the table's merge is the join of levels; a dropped pair has a contradiction *)
Lemma merge_acc_lvl x y m : merge_acc x y = Some m -> acc_lvl m = lvl_join (acc_lvl x) (acc_lvl y).
Proof. destruct x, y; cbn; intros H; inversion H; reflexivity. Qed.
Lemma conflict_acc_lvl x : conflict_acc x = true <-> acc_lvl x = LConf.
Proof. destruct x; cbn; split; congruence. Qed.
Lemma neg_acc_lvl x : acc_lvl (neg_acc x) = LNone. Proof. destruct x; reflexivity. Qed.
Lemma clear_acc_lvl x : acc_lvl (clear_acc x) = LNone. Proof. destruct x; reflexivity. Qed.

Definition lt_all (k : N) (cs : case) : Prop := Forall (fun p => k < fst p) cs.
Fixpoint csorted (cs : case) : Prop :=
  match cs with [] => True | p :: t => lt_all (fst p) t /\ csorted t end.

Lemma lt_all_in k cs p : lt_all k cs -> In p cs -> k < fst p.
Proof. intros H. exact (proj1 (Forall_forall _ _) H p). Qed.
Lemma lt_all_weaken k k' cs : k' <= k -> lt_all k cs -> lt_all k' cs.
Proof. intros Hk H. apply Forall_forall. intros p Hp. apply (lt_all_in _ _ _ H) in Hp. lia. Qed.

Lemma merge_case_sorted : forall l r m, merge_case l r = Some m -> csorted l -> csorted r ->
  csorted m /\ (forall k, lt_all k l -> lt_all k r -> lt_all k m).
Proof.
  apply (merge_case_ind (fun l r o => forall m, o = Some m -> csorted l -> csorted r ->
                           csorted m /\ (forall k, lt_all k l -> lt_all k r -> lt_all k m))).
  - intros r m [= <-] _ Hr. auto.
  - intros l m [= <-] Hl _. auto.
  - discriminate.
  - intros i x y m0 l r [c|] _ IH m [= <-] [Hl1 Hl2] [Hr1 Hr2]. destruct (IH c eq_refl Hl2 Hr2) as [Hs Hb]. split.
    + split; [apply Hb; assumption|exact Hs].
    + intros k Hk1 Hk2. apply Forall_cons_iff in Hk1 as [Hk Hk1]. apply Forall_cons_iff in Hk2 as [_ Hk2].
      constructor; [exact Hk|now apply Hb].
  - intros i x j y l r [c|] L IH m [= <-] [Hl1 Hl2] Hr. destruct (IH c eq_refl Hl2 Hr) as [Hs Hb]. split.
    + split; [|exact Hs]. apply Hb; [exact Hl1|]. constructor; [exact L|]. apply (lt_all_weaken j); [cbn; lia|apply Hr].
    + intros k Hk1 Hk2. apply Forall_cons_iff in Hk1 as [Hk Hk1]. constructor; [exact Hk|now apply Hb].
  - intros i x j y l r [c|] G IH m [= <-] Hl [Hr1 Hr2]. destruct (IH c eq_refl Hl Hr2) as [Hs Hb]. split.
    + split; [|exact Hs]. apply Hb; [|exact Hr1]. constructor; [exact G|]. apply (lt_all_weaken i); [cbn; lia|apply Hl].
    + intros k Hk1 Hk2. apply Forall_cons_iff in Hk2 as [Hk Hk2]. constructor; [exact Hk|now apply Hb].
Qed.

Lemma merge_case_lvl : forall l r m, merge_case l r = Some m ->
  forall c, case_lvl m c = lvl_join (case_lvl l c) (case_lvl r c).
Proof.
  apply (merge_case_ind (fun l r o => forall m, o = Some m -> forall c, case_lvl m c = lvl_join (case_lvl l c) (case_lvl r c))).
  - intros r m [= <-] c. symmetry. apply lvl_join_none_l.
  - intros l m [= <-] c. symmetry. apply lvl_join_none_r.
  - discriminate.
  - intros i x y m0 l r [c0|] E IH m [= <-] c. rewrite !case_lvl_cons, (IH c0 eq_refl), (merge_acc_lvl _ _ _ E).
    destruct (i =? c); [|reflexivity]. now rewrite <- !lvl_join_assoc, (lvl_join_swap (acc_lvl y)).
  - intros i x j y l r [c0|] _ IH m [= <-] c. rewrite (case_lvl_cons i x c0), (case_lvl_cons i x l), (IH c0 eq_refl).
    destruct (i =? c); [apply lvl_join_assoc|reflexivity].
  - intros i x j y l r [c0|] _ IH m [= <-] c. rewrite (case_lvl_cons j y c0), (case_lvl_cons j y r), (IH c0 eq_refl).
    destruct (j =? c); [apply lvl_join_swap|reflexivity].
Qed.

Lemma ca_and_in m x y : In m (ca_and x y) <-> exists l r, In l x /\ In r y /\ merge_case l r = Some m.
Proof.
  unfold ca_and. rewrite in_flat_map. split.
  - intros (r & Hr & Hm). rewrite in_flat_map in Hm. destruct Hm as (l & Hl & Hm).
    destruct (merge_case l r) as [c|] eqn:E; [|destruct Hm]. destruct Hm as [<-|[]]. eauto.
  - intros (l & r & Hl & Hr & E). exists r. split; [exact Hr|]. rewrite in_flat_map. exists l. split; [exact Hl|].
    rewrite E. now left.
Qed.

Definition ca_wf (e : ca) : Prop := Forall csorted e.
Lemma ca_and_wf x y : ca_wf x -> ca_wf y -> ca_wf (ca_and x y).
Proof.
  unfold ca_wf. rewrite !Forall_forall. intros Hx Hy m Hm. apply ca_and_in in Hm as (l & r & Hl & Hr & E).
  exact (proj1 (merge_case_sorted l r m E (Hx _ Hl) (Hy _ Hr))).
Qed.
Lemma ca_or_wf x y : ca_wf x -> ca_wf y -> ca_wf (ca_or x y).
Proof. unfold ca_wf, ca_or. intros. now apply Forall_app. Qed.
Lemma ca_true_wf : ca_wf ca_true. Proof. repeat constructor. Qed.
Lemma ca_var_wf i a : ca_wf (ca_var i a). Proof. repeat constructor. Qed.
Lemma fold_and_wf (l : list ca) : Forall ca_wf l -> forall acc, ca_wf acc -> ca_wf (fold_left ca_and l acc).
Proof. induction 1 as [|x l Hx _ IH]; intros acc Ha; cbn; [exact Ha|]. apply IH, ca_and_wf; assumption. Qed.
Lemma ca_not_wf x : ca_wf (ca_not x).
Proof.
  induction x as [|c x IH] using rev_ind; [apply ca_true_wf|]. rewrite ca_not_snoc. apply ca_and_wf; [exact IH|].
  apply Forall_map, Forall_forall. intros p _. repeat constructor.
Qed.
Lemma ca_clear_wf x : ca_wf x -> ca_wf (ca_clear x).
Proof.
  unfold ca_wf, ca_clear. rewrite !Forall_forall. intros H cs Hin. apply in_map_iff in Hin as (c0 & <- & Hc).
  specialize (H _ Hc). clear Hc. induction c0 as [|[i a] t IH]; cbn; [exact I|]. destruct H as [H1 H2]. split; [|auto].
  unfold lt_all in *. rewrite Forall_forall in *. intros p Hp. apply in_map_iff in Hp as ([j b] & <- & Hj). exact (H1 _ Hj).
Qed.

Theorem access_of_wf (q : query) : ca_wf (access_of q).
Proof.
  induction q as [c|c|qs IH|q IH|l r IHl IHr|l r IHl IHr|q IH|q IH|q IH|] using query_ind'; cbn [access_of].
  9-10: apply ca_true_wf.
  1-2: apply ca_var_wf.
  - change (ca_wf (access_of (QTuple qs))). rewrite access_tuple. apply fold_and_wf; [apply Forall_map, IH|apply ca_true_wf].
  - apply ca_or_wf; [apply ca_true_wf|exact IH].
  - apply ca_or_wf; [apply ca_or_wf; assumption|apply ca_and_wf; assumption].
  - apply ca_or_wf; apply ca_and_wf; auto using ca_not_wf.
  - apply ca_not_wf.
  - apply ca_clear_wf, IH.
Qed.

Definition quiet (cs : case) : Prop := forall c, case_lvl cs c = LNone.
Lemma ca_true_quiet : forall cs, In cs ca_true -> quiet cs.
Proof. intros cs [<-|[]] c. reflexivity. Qed.
Lemma ca_not_quiet x : forall cs, In cs (ca_not x) -> quiet cs.
Proof.
  induction x as [|c x IH] using rev_ind; [exact ca_true_quiet|]. rewrite ca_not_snoc. intros m Hm c0.
  apply ca_and_in in Hm as (l & r & Hl & Hr & E). rewrite (merge_case_lvl _ _ _ E), (IH l Hl c0).
  apply in_map_iff in Hr as ([i a] & <- & _). cbn [fst snd]. rewrite case_lvl_cons, neg_acc_lvl. now destruct (i =? c0).
Qed.
Lemma ca_clear_quiet x : forall cs, In cs (ca_clear x) -> quiet cs.
Proof.
  unfold ca_clear. intros cs Hin. apply in_map_iff in Hin as (c0 & <- & _). intros c.
  induction c0 as [|[i a] t IH]; [reflexivity|]. cbn [map fst snd]. rewrite case_lvl_cons, clear_acc_lvl, IH. now destruct (i =? c).
Qed.

(* a sorted case is satisfied by the archetype of its positive literals *)
Definition canon (cs : case) (c : N) : bool := existsb (fun p => (fst p =? c) && pos_acc (snd p)) cs.
Lemma canon_cons i a cs c : canon ((i, a) :: cs) c = (i =? c) && pos_acc a || canon cs c.
Proof. reflexivity. Qed.
Lemma canon_notin cs c : lt_all c cs -> canon cs c = false.
Proof.
  induction cs as [|[i a] t IH]; intros H; [reflexivity|]. apply Forall_cons_iff in H as [Hi H]. rewrite canon_cons, (IH H).
  cbn in Hi. now rewrite (proj2 (N.eqb_neq i c)) by lia.
Qed.
Lemma canon_lit cs : csorted cs -> forall p, In p cs -> canon cs (fst p) = pos_acc (snd p).
Proof.
  induction cs as [|[i a] t IH]; intros Hs p Hp; [destruct Hp|]. destruct Hs as [H1 H2]. rewrite canon_cons. destruct Hp as [<-|Hp]; cbn [fst snd].
  - rewrite N.eqb_refl, (canon_notin t i H1). apply orb_false_r.
  - apply (lt_all_in _ _ _ H1) in Hp as Hlt. cbn in Hlt. rewrite (proj2 (N.eqb_neq i (fst p))) by lia. now apply IH.
Qed.
Lemma canon_matches cs : csorted cs -> case_matches (canon cs) cs = true.
Proof.
  intros Hs. apply forallb_forall. intros p Hp. unfold lit_holds. rewrite (canon_lit cs Hs p Hp). now destruct (pos_acc (snd p)).
Qed.

(* a Conflict literal is what collect_conflicts reports *)
Lemma app_nonnil {A} (x y : list A) : x ++ y <> [] <-> x <> [] \/ y <> [].
Proof. destruct x; cbn; split; intros H; try tauto; [left; discriminate|discriminate]. Qed.
Lemma flat_nonnil {A B} (f : A -> list B) l : flat_map f l <> [] <-> exists x, In x l /\ f x <> [].
Proof.
  induction l as [|h t IH]; cbn; [split; [tauto|intros (x & [] & _)]|].
  rewrite app_nonnil, IH. split.
  - intros [H|(x & Hx & Hf)]; [exists h; auto|exists x; auto].
  - intros (x & [<-|Hx] & Hf); [now left|right; eauto].
Qed.
Lemma conflicts_nonempty e : ca_conflicts e <> [] <-> exists cs p, In cs e /\ In p cs /\ conflict_acc (snd p) = true.
Proof.
  unfold ca_conflicts. match goal with |- context [dedupN ?x []] => assert (Hd : dedupN x [] <> [] <-> x <> []) by
    (destruct x; [tauto|split; discriminate]) end.
  rewrite Hd, flat_nonnil. split.
  - intros (cs & Hcs & H). apply flat_nonnil in H as (p & Hp & H). exists cs, p. destruct (conflict_acc (snd p)); [auto|now destruct H].
  - intros (cs & p & Hcs & Hp & Hc). exists cs. split; [exact Hcs|]. apply flat_nonnil. exists p. rewrite Hc. split; [exact Hp|discriminate].
Qed.

(* in a sorted case the level of a component is that of its only literal *)
Lemma case_lvl_notin cs c : lt_all c cs -> case_lvl cs c = LNone.
Proof.
  induction cs as [|[i a] t IH]; intros H; [reflexivity|]. apply Forall_cons_iff in H as [Hi H]. rewrite case_lvl_cons.
  cbn in Hi. rewrite (proj2 (N.eqb_neq i c)) by lia. exact (IH H).
Qed.
Lemma case_lvl_sorted_lit cs : csorted cs -> forall p, In p cs -> case_lvl cs (fst p) = acc_lvl (snd p).
Proof.
  induction cs as [|[i a] t IH]; intros Hs p Hp; [destruct Hp|]. destruct Hs as [H1 H2]. rewrite case_lvl_cons.
  destruct Hp as [<-|Hp]; cbn [fst snd].
  - rewrite N.eqb_refl, (case_lvl_notin t i H1). apply lvl_join_none_r.
  - apply (lt_all_in _ _ _ H1) in Hp as Hlt. cbn in Hlt. rewrite (proj2 (N.eqb_neq i (fst p))) by lia. now apply IH.
Qed.
Lemma case_lvl_conf_lit cs c : case_lvl cs c = LConf -> csorted cs -> exists p, In p cs /\ fst p = c /\ acc_lvl (snd p) = LConf.
Proof.
  induction cs as [|[i a] t IH]; intros H Hs; [discriminate|]. destruct Hs as [H1 H2]. rewrite case_lvl_cons in H.
  destruct (N.eqb_spec i c) as [->|_].
  - rewrite (case_lvl_notin t c H1), lvl_join_none_r in H. exists (c, a). cbn. auto.
  - destruct (IH H H2) as (p & Hp & Hf & Hl). exists p. split; [now right|auto].
Qed.

Fixpoint srefs (a : N -> bool) (q : query) : list (N * bool) :=
  match q with
  | QRef c => [(c, false)]
  | QMut c => [(c, true)]
  | QTuple qs => flat_map (srefs a) qs
  | QOpt x => if qmatch a x then srefs a x else []
  | QOr l r | QXor l r => (if qmatch a l then srefs a l else []) ++ (if qmatch a r then srefs a r else [])
  | QNot _ | QWith _ | QHas _ | QEid => []
  end.

(* they are the references of the item the model (and the implementation) builds *)
Lemma arefs_srefs a q : forall st, arch_state a q = Some st -> arefs st = srefs a q.
Proof.
  induction q as [c|c|qs IH|q IH|l r IHl IHr|l r IHl IHr|q IH|q IH|q IH|] using query_ind'; cbn [arch_state srefs]; intros st Hs.
  9-10: inversion Hs; reflexivity.
  7-8: destruct (arch_state a q); inversion Hs; reflexivity.
  5-6: rewrite <- !arch_state_iff_qmatch; destruct (arch_state a l) as [sl|], (arch_state a r) as [sr|]; inversion Hs; cbn [arefs];
         rewrite ?(IHl sl eq_refl), ?(IHr sr eq_refl), ?app_nil_r; reflexivity.
  1-2: destruct (a c); inversion Hs; reflexivity.
  - destruct (seq_opt (map (arch_state a) qs)) as [sts|] eqn:Es; [|discriminate]. injection Hs as <-. cbn [arefs].
    revert sts Es. induction IH as [|x t Hx _ IHt]; intros sts Es; cbn [map seq_opt] in Es; [now inversion Es|].
    destruct (arch_state a x) as [sx|]; [|discriminate]. destruct (seq_opt (map (arch_state a) t)) as [st'|]; inversion Es.
    cbn [flat_map]. now rewrite (Hx sx eq_refl), (IHt st' eq_refl).
  - rewrite <- arch_state_iff_qmatch. destruct (arch_state a q) as [sq|]; inversion Hs; cbn [arefs]; auto.
Qed.
Theorem qrefs_srefs a q : qmatch a q = true -> qrefs a q = srefs a q.
Proof.
  unfold qrefs. rewrite <- arch_state_iff_qmatch. destruct (arch_state a q) as [st|] eqn:Es; [intros _|discriminate].
  exact (arefs_srefs a q st Es).
Qed.

Lemma in_case_matches a e cs : In cs e -> case_matches a cs = true -> ca_matches a e = true.
Proof. intros Hin Hm. unfold ca_matches. apply existsb_exists. eauto. Qed.

Lemma tuple_ind (P : query -> Prop) :
  P (QTuple []) -> (forall qs q, P (QTuple qs) -> P q -> P (QTuple (qs ++ [q]))) -> forall qs, Forall P qs -> P (QTuple qs).
Proof.
  intros H0 HS qs. induction qs as [|q qs IH] using rev_ind; intros HF; [exact H0|].
  apply Forall_app in HF as [H1 H2]. apply HS; [exact (IH H1)|now inversion H2].
Qed.
Lemma access_snoc qs q : access_of (QTuple (qs ++ [q])) = ca_and (access_of (QTuple qs)) (access_of q).
Proof. cbn [access_of]. now rewrite fold_left_app. Qed.
Lemma qmatch_snoc a qs q : qmatch a (QTuple (qs ++ [q])) = qmatch a (QTuple qs) && qmatch a q.
Proof. cbn [qmatch]. rewrite forallb_app. cbn [forallb]. now rewrite andb_true_r. Qed.
Lemma srefs_snoc a qs q : srefs a (QTuple (qs ++ [q])) = srefs a (QTuple qs) ++ srefs a q.
Proof. cbn [srefs]. rewrite flat_map_app. cbn [flat_map]. now rewrite app_nil_r. Qed.

(* L2: every satisfied case grants at most the references of the branch actually taken *)
Definition below (a : N -> bool) (e : ca) (rs : list (N * bool)) : Prop :=
  forall cs, In cs e -> case_matches a cs = true -> forall c, lvl_le (case_lvl cs c) (refs_lvl rs c) = true.

Lemma below_quiet a e rs : (forall cs, In cs e -> quiet cs) -> below a e rs.
Proof. intros H cs Hin _ c. now rewrite (H cs Hin c). Qed.
Lemma below_or a x y rs : below a x rs -> below a y rs -> below a (ca_or x y) rs.
Proof. intros Hx Hy cs Hin. apply in_app_or in Hin as [Hin|Hin]; auto. Qed.
Lemma below_and a x y rx ry : below a x rx -> below a y ry -> below a (ca_and x y) (rx ++ ry).
Proof.
  intros Hx Hy cs Hin Hm c. apply ca_and_in in Hin as (l & r & Hl & Hr & E).
  pose proof (merge_case_matches a l r) as H. rewrite E, Hm in H. symmetry in H. apply andb_true_iff in H as [Ml Mr].
  rewrite refs_lvl_app, (merge_case_lvl _ _ _ E). apply lvl_join_mono; auto.
Qed.
Lemma below_and_quiet a x y rs : below a x rs -> (forall cs, In cs y -> quiet cs) -> below a (ca_and x y) rs.
Proof. intros Hx Hy. rewrite <- (app_nil_r rs). apply below_and; [exact Hx|now apply below_quiet]. Qed.
Lemma below_app_l a e rx ry : below a e rx -> below a e (rx ++ ry).
Proof. intros H cs Hin Hm c. rewrite refs_lvl_app. eapply lvl_le_trans; [now apply H|apply lvl_le_join_l]. Qed.
Lemma below_app_r a e rx ry : below a e ry -> below a e (rx ++ ry).
Proof. intros H cs Hin Hm c. rewrite refs_lvl_app. eapply lvl_le_trans; [now apply H|apply lvl_le_join_r]. Qed.
Lemma below_if a q : below a (access_of q) (srefs a q) -> below a (access_of q) (if qmatch a q then srefs a q else []).
Proof. intros H cs Hin Hm. rewrite <- (access_matches_qmatch a q), (in_case_matches a _ _ Hin Hm). now apply H. Qed.

Theorem case_below_refs a (q : query) : below a (access_of q) (srefs a q).
Proof.
  induction q as [c0|c0|qs IH|q IH|l r IHl IHr|l r IHl IHr|q IH|q IH|q IH|] using query_ind'; cbn [access_of srefs].
  9-10: apply below_quiet, ca_true_quiet.
  1-2: intros cs [<-|[]] _ c; unfold var_acc; rewrite case_lvl_cons, refs_lvl_cons; cbn; destruct (c0 =? c); reflexivity.
  - apply (tuple_ind (fun q => below a (access_of q) (srefs a q))); [apply below_quiet, ca_true_quiet| |exact IH].
    intros qs' q H1 H2. rewrite access_snoc, srefs_snoc. now apply below_and.
  - apply below_or; [apply below_quiet, ca_true_quiet|apply below_if, IH].
  - apply below_or; [apply below_or; [apply below_app_l|apply below_app_r]|apply below_and]; apply below_if; assumption.
  - apply below_or; [apply below_app_l|apply below_app_r]; apply below_and_quiet; try apply ca_not_quiet; apply below_if; assumption.
  - apply below_quiet, ca_not_quiet.
  - apply below_quiet, ca_clear_quiet.
Qed.

(* L1: on every archetype the query matches, some satisfied case grants at least the references *)
Definition above (a : N -> bool) (e : ca) (rs : list (N * bool)) : Prop :=
  exists cs, In cs e /\ case_matches a cs = true /\ forall c, lvl_le (refs_lvl rs c) (case_lvl cs c) = true.

Lemma above_nil a e : ca_matches a e = true -> above a e [].
Proof. intros H. apply existsb_exists in H as (cs & Hin & Hm). exists cs. auto. Qed.
Lemma above_or_l a x y rs : above a x rs -> above a (ca_or x y) rs.
Proof. intros (cs & Hin & H). exists cs. split; [apply in_or_app; now left|exact H]. Qed.
Lemma above_or_r a x y rs : above a y rs -> above a (ca_or x y) rs.
Proof. intros (cs & Hin & H). exists cs. split; [apply in_or_app; now right|exact H]. Qed.
Lemma above_and a x y rx ry : above a x rx -> above a y ry -> above a (ca_and x y) (rx ++ ry).
Proof.
  intros (l & Hl & Ml & Ll) (r & Hr & Mr & Lr). pose proof (merge_case_matches a l r) as Mm. rewrite Ml, Mr in Mm.
  destruct (merge_case l r) as [m|] eqn:E; [|discriminate]. exists m.
  split; [apply ca_and_in; eauto|]. split; [exact Mm|]. intros c. rewrite refs_lvl_app, (merge_case_lvl _ _ _ E). now apply lvl_join_mono.
Qed.
Lemma above_and_nil a x y rs : above a x rs -> ca_matches a y = true -> above a (ca_and x y) rs.
Proof. intros Hx Hy. rewrite <- (app_nil_r rs). apply above_and; [exact Hx|now apply above_nil]. Qed.

Theorem refs_below_some_case a (q : query) : qmatch a q = true -> above a (access_of q) (srefs a q).
Proof.
  induction q as [c0|c0|qs IH|q IH|l r IHl IHr|l r IHl IHr|q IH|q IH|q IH|] using query_ind'; cbn [access_of srefs qmatch]; intros Hm.
  9-10: now apply above_nil.
  1-2: eexists; split; [now left|]; split; [unfold case_matches, lit_holds; cbn; now rewrite Hm|]; intros c;
         rewrite case_lvl_cons, refs_lvl_cons; cbn; destruct (c0 =? c); reflexivity.
  - revert Hm. apply (tuple_ind (fun q => qmatch a q = true -> above a (access_of q) (srefs a q))); [intros _; now apply above_nil| |exact IH].
    intros qs' q H1 H2 Hm. rewrite qmatch_snoc in Hm. apply andb_true_iff in Hm as [M1 M2].
    rewrite access_snoc, srefs_snoc. apply above_and; auto.
  - destruct (qmatch a q) eqn:Eq; [apply above_or_r; auto|now apply above_or_l, above_nil].
  - destruct (qmatch a l) eqn:El, (qmatch a r) eqn:Er; try discriminate.
    + apply above_or_r, above_and; auto.
    + rewrite app_nil_r. apply above_or_l, above_or_l; auto.
    + apply above_or_l, above_or_r; auto.
  - destruct (qmatch a l) eqn:El, (qmatch a r) eqn:Er; try discriminate.
    + rewrite app_nil_r. apply above_or_l, above_and_nil; [auto|]. now rewrite ca_not_matches, access_matches_qmatch, Er.
    + apply above_or_r, above_and_nil; [auto|]. now rewrite ca_not_matches, access_matches_qmatch, El.
  - apply above_nil. now rewrite ca_not_matches, access_matches_qmatch.
  - apply above_nil. now rewrite ca_clear_matches, access_matches_qmatch.
Qed.

Theorem conflict_iff_aliasing (q : query) :
  ca_conflicts (access_of q) <> [] <-> exists a, qmatch a q = true /\ aliasing (srefs a q).
Proof.
  rewrite conflicts_nonempty. split.
  - intros (cs & p & Hcs & Hp & Hc). pose proof (proj1 (Forall_forall _ _) (access_of_wf q) cs Hcs) as Hwf.
    exists (canon cs). pose proof (canon_matches cs Hwf) as Hm.
    split; [rewrite <- access_matches_qmatch; eapply in_case_matches; eauto|].
    exists (fst p). apply lvl_le_conf. rewrite <- (proj1 (conflict_acc_lvl _) Hc), <- (case_lvl_sorted_lit cs Hwf p Hp).
    now apply case_below_refs.
  - intros (a & Hm & c & Hc). destruct (refs_below_some_case a q Hm) as (cs & Hcs & Mcs & Lcs).
    specialize (Lcs c). rewrite Hc in Lcs. apply lvl_le_conf in Lcs.
    pose proof (proj1 (Forall_forall _ _) (access_of_wf q) cs Hcs) as Hwf.
    destruct (case_lvl_conf_lit cs c Lcs Hwf) as (p & Hp & _ & Hl). exists cs, p. split; [exact Hcs|]. split; [exact Hp|].
    now apply conflict_acc_lvl.
Qed.

(* references handed out for an entity of archetype [a] by all parameters whose query matches it *)
Definition hrefs (a : N -> bool) (qs : list query) : list (N * bool) :=
  flat_map (fun q => if qmatch a q then srefs a q else []) qs.

Lemma ca_and_true_l x : ca_and ca_true x = x.
Proof.
  induction x as [|r x IH]; [reflexivity|].
  change (ca_and ca_true (r :: x)) with ((match merge_case [] r with Some c => [c] | None => [] end ++ []) ++ ca_and ca_true x).
  rewrite IH. destruct r; reflexivity.
Qed.
Lemma access_pair q1 q2 : access_of (QTuple [q1; q2]) = ca_and (access_of q1) (access_of q2).
Proof. cbn [access_of fold_left]. now rewrite ca_and_true_l. Qed.
Lemma srefs_pair a q1 q2 : srefs a (QTuple [q1; q2]) = srefs a q1 ++ srefs a q2.
Proof. cbn [srefs flat_map]. now rewrite app_nil_r. Qed.

Lemma hrefs_cons a q qs c : refs_lvl (hrefs a (q :: qs)) c =
  lvl_join (refs_lvl (if qmatch a q then srefs a q else []) c) (refs_lvl (hrefs a qs) c).
Proof. unfold hrefs. cbn [flat_map]. apply refs_lvl_app. Qed.

(* the level of a component over all parameters is that of one matching parameter, unless nothing or a conflict *)
Lemma hrefs_lvl_cases a c : forall qs, refs_lvl (hrefs a qs) c = LNone \/ refs_lvl (hrefs a qs) c = LConf \/
  exists q, In q qs /\ qmatch a q = true /\ refs_lvl (srefs a q) c = refs_lvl (hrefs a qs) c.
Proof.
  induction qs as [|q qs IH]; [now left|]. rewrite hrefs_cons.
  destruct (lvl_join_cases (refs_lvl (if qmatch a q then srefs a q else []) c) (refs_lvl (hrefs a qs) c)) as [E|[E|E]]; rewrite E.
  - destruct (qmatch a q) eqn:Em; [right; right; exists q; auto using in_eq|now left].
  - destruct IH as [E1|[E1|(q' & Hin & Hm & Hl)]]; [now left|now right; left|]. right. right. exists q'. auto using in_cons.
  - now right; left.
Qed.

Lemma hrefs_in a c q : forall qs, In q qs -> qmatch a q = true -> lvl_le (refs_lvl (srefs a q) c) (refs_lvl (hrefs a qs) c) = true.
Proof.
  induction qs as [|q' qs IH]; intros Hin Hm; [destruct Hin|]. rewrite hrefs_cons.
  destruct Hin as [->|Hin]; [rewrite Hm; apply lvl_le_join_l|]. eapply lvl_le_trans; [now apply IH|apply lvl_le_join_r].
Qed.
