(* WorldFrame.v : which operations leave which parts of the state untouched, generically in the observation
   (Section Frame: an observation that the record updates of a delivery leave alone is left alone by a whole flush);
   its instances here are the arena-reset counter, changed by nothing but the end of a completed flush (C20), and the
   event registries.  The structure is not one, since a delivery changes it; that no handler can change it (C09) comes
   from Section HandlerFrame (an observation that the four updates a handler makes leave alone) through [quiet_swalks].
   Before that, the rules "a predicate kept by its real steps is kept by" spawn_all, the two traversals and a built-in
   effect.
   What the handlers of a delivery do is said once, as a rule (Sections Body, Handler, Handlers): a handler body consumes
   fuel, draws serials and records ids (the harness state), pushes events its Sender knows, reserves an id for the Spawn
   event it pushes next, and stops with a panic, after which the refused event value is dropped and a reservation may be
   left behind.  Around the body the handler is logged and writes through its views; around the handlers the event is
   dropped once a handler has taken it.  A predicate of world, events pushed so far and failure that is closed under
   these steps ([walks]) holds of what [run_actions], [run_handler], [run_handlers], and with the built-in effect
   [deliver_one], return; [swalks] is the same for a predicate of the world alone.  Section Propagation reads the stack
   machine of Loop.v at world level. *)
From Coq Require Import List NArith Bool Lia.
Import ListNotations.
Require Import EV.Base EV.ListN EV.Access EV.Query EV.SlotMap EV.Reserve EV.HList EV.Loop EV.World EV.StorageSpec EV.ArchProofs.
Open Scope N_scope.

Definition res_world {A} (r : res A) : world := match r with ROk _ w => w | RFail _ w => w end.

Section SpawnAll.
Variable P : world -> Prop.
Hypothesis P_one : forall w k ents', insert_with (fun _ => spawn_loc w) (w_ents w) = Some (k, ents') -> P w -> P (set_ents (snd (arch_spawn w k)) ents').
Lemma spawn_all_n_keeps n w : P w -> P (res_world (spawn_all_n n w)).
Proof. intros HP. pose proof (spawn_all_n_rule P P_one n w HP) as H. destruct (spawn_all_n n w); [exact H|exact (proj1 (proj2 H))]. Qed.
Lemma spawn_all_keeps w : (forall w1, P w1 -> P (set_res w1 (next_key_iter (w_ents w1)) 0)) -> P w -> P (res_world (spawn_all w)).
Proof.
  intros Hr HP. unfold spawn_all. pose proof (spawn_all_n_keeps (N.to_nat (w_rcnt w)) w HP) as H.
  destruct (spawn_all_n _ w) as [[] w1|f w1]; [now apply Hr|exact H].
Qed.
End SpawnAll.

Section Traverse.
Variables (P : world -> Prop) (w : world) (src c : N).
Hypothesis P_edges : forall w1 i r, P w1 -> P (upd_arch w1 src (fun a => set_edges a (i a) (r a))).
Lemma traverse_insert_keeps :
  (forall sa, slab_get (w_archs w) src = Some sa -> arch_has sa c = false -> P (snd (create_arch w (sorted_insert c (a_comps sa)) [] [(c, src)]))) ->
  P w -> P (res_world (traverse_insert w src c)).
Proof.
  intros Hc HP. unfold traverse_insert. destruct (slab_get (w_archs w) src) as [sa|]; [|exact HP].
  destruct (alookup c (a_ins sa)); [exact HP|]. destruct (arch_has sa c) eqn:Hh; [exact HP|]. specialize (Hc sa eq_refl Hh).
  destruct (aby_lookup w _); [|destruct (create_arch w _ _ _) as [d w1]]; apply (P_edges _ (fun a => ainsert c _ (a_ins a)) a_rem); assumption.
Qed.
Lemma traverse_remove_keeps :
  (forall sa, slab_get (w_archs w) src = Some sa -> arch_has sa c = true -> P (snd (create_arch w (filter (fun x => negb (x =? c)) (a_comps sa)) [(c, src)] []))) ->
  P w -> P (res_world (traverse_remove w src c)).
Proof.
  intros Hc HP. unfold traverse_remove. destruct (slab_get (w_archs w) src) as [sa|]; [|exact HP].
  destruct (alookup c (a_rem sa)); [exact HP|]. destruct (arch_has sa c) eqn:Hh; [|exact HP]. specialize (Hc sa eq_refl Hh). cbn [negb].
  destruct (aby_lookup w _); [|destruct (create_arch w _ _ _) as [d w1]]; apply (P_edges _ a_ins (fun a => ainsert c _ (a_rem a))); assumption.
Qed.
End Traverse.

Section Effect.
Variables (P : world -> Prop) (kind : ekind) (ev : evv) (loc : eloc) (w : world).
Hypothesis P_ti : forall c, kind = KInsert c -> P (res_world (traverse_insert w (fst loc) c)).
Hypothesis P_tr : forall c, kind = KRemove c -> P (res_world (traverse_remove w (fst loc) c)).
Hypothesis P_move : forall w1 d nw, P w1 -> P (res_world (move_entity w1 loc d nw)).
Hypothesis P_spawn : forall w1, P w1 -> P (res_world (spawn_all w1)).
Hypothesis P_remove : forall w1, P w1 -> P (res_world (remove_entity w1 loc)).
Hypothesis P_res : forall w1 a b, P w1 -> P (set_res w1 a b).
Lemma builtin_effect_keeps : P w -> P (res_world (builtin_effect kind ev loc w)).
Proof.
  intros HP. destruct kind as [|c|c| |]; cbn [builtin_effect]; [exact HP| | |now apply P_spawn|].
  - specialize (P_ti c eq_refl). destruct (traverse_insert w (fst loc) c); [apply P_move|]; exact P_ti.
  - specialize (P_tr c eq_refl). destruct (traverse_remove w (fst loc) c); [apply P_move|]; exact P_tr.
  - apply P_spawn in HP. destruct (spawn_all w) as [[] w2|]; cbn [rbind res_world] in *; [|exact HP]. apply P_remove in HP.
    destruct (remove_entity w2 loc) as [[] w3|]; [apply P_res|]; exact HP.
Qed.
End Effect.

Ltac fr := intros; first [reflexivity | unfold notify_refresh; match goal with |- context [match ?x with _ => _ end] => destruct x end; reflexivity
  | unfold notify_remove_with; reflexivity
  | unfold create_arch; repeat match goal with |- context [match ?x with _ => _ end] => destruct x end; reflexivity].

Ltac break_match :=
  match goal with
  | |- context [match ?x with _ => _ end] => destruct x eqn:?
  | |- context [if ?x then _ else _] => destruct x eqn:?
  end.

Lemma fold_left_pres {A T} (pi : world -> T) (f : world -> A -> world) (l : list A) :
  (forall w a, pi (f w a) = pi w) -> forall w, pi (fold_left f l w) = pi w.
Proof. intros H. induction l as [|a l IH]; intros w; cbn [fold_left]; [reflexivity|]. now rewrite IH, H. Qed.

Lemma rbind_pres {A B T} (pi : world -> T) (r : res A) (f : A -> world -> res B) (w0 : world) :
  pi (res_world r) = pi w0 -> (forall a w, pi w = pi w0 -> pi (res_world (f a w)) = pi w0) ->
  pi (res_world (rbind r f)) = pi w0.
Proof. intros H1 H2. destruct r as [a w|e w]; cbn [rbind res_world] in *; auto. Qed.

Definition hst_upd (w : world) (ids : list key) (fuel ser : N) : world :=
  set_h w (set_hst_fields (w_h w) ids fuel ser (k_inv (w_h w)) (k_log (w_h w))).
Definition hst_enter (w : world) (le : logent) : world :=
  set_h w (set_hst_fields (w_h w) (k_ids (w_h w)) (k_fuel (w_h w)) (k_serial (w_h w)) (k_inv (w_h w) + 1) (k_log (w_h w) ++ [le])).

(* [S targeted tag idx] : an event of that type may be pushed under that index *)
Definition sends (ps : list rparam) (S : bool -> N -> N -> Prop) : Prop :=
  forall tg tag idx, sender_lookup ps tg tag = Some (Some idx) -> S tg tag idx.

Definition took (beh : hinfo -> logent -> N -> script) (it : qitem) (tag : N) : Prop :=
  exists h le n, lg_targeted le = qi_targeted it /\ lg_tag le = tag /\ s_take (beh h le n) = true.

(* [P w s fl] of the world, the events pushed so far and the failure, if any, is closed under what a handler body does ... *)
Record bwalks (P : world -> list qitem -> option fail -> Prop) (S : bool -> N -> N -> Prop) (E : fail -> Prop) : Prop := {
  wk_upd : forall w s ids fuel ser, P w s None -> P (hst_upd w ids fuel ser) s None;
  wk_push : forall w s tg tag idx target ev, S tg tag idx -> ev_id ev = KEY_NULL -> P w s None -> P w (s ++ [mkQ tg idx target ev]) None;
  wk_spawn : forall w s id w1 idx, S false G_SPAWN idx -> reserve w = ROk id w1 -> P w s None ->
    P w1 (s ++ [mkQ false idx KEY_NULL (mkEv 0 0 id)]) None;
  wk_stop : forall w s f, E f -> P w s None -> P w s (Some f);
  wk_unwind : forall w s f, P w s (Some f) ->
    (forall tg tag ev, P (ev_drop w tg tag ev) s (Some f)) /\ P (res_world (reserve w)) s (Some f);
  wk_panic : forall k, E (FPanic k) }.
(* ... and under what the handler does around it *)
Record walks (P : world -> list qitem -> option fail -> Prop) (S : bool -> N -> N -> Prop) (E : fail -> Prop) : Prop := {
  wk_body :> bwalks P S E;
  wk_enter : forall w s le, P w s None -> P (hst_enter w le) s None;
  wk_write : forall w s q d ai r, P w s None -> P (write_arch w q d ai r) s None }.

Record swalks (Q : world -> Prop) : Prop := {
  sw_h : forall w x, Q w -> Q (set_h w x);
  sw_write : forall w q d ai r, Q w -> Q (write_arch w q d ai r);
  sw_reserve : forall w, Q w -> Q (res_world (reserve w));
  sw_drop : forall w tg tag ev, Q w -> Q (ev_drop w tg tag ev) }.

Lemma swalks_and Q R : swalks Q -> swalks R -> swalks (fun w => Q w /\ R w).
Proof. intros HQ HR. split; intros; (split; [apply HQ|apply HR]); tauto. Qed.

Section HandlerFrame.
Context {T : Type} (pi : world -> T).
Hypothesis h_set_res : forall w a b, pi (set_res w a b) = pi w.
Hypothesis h_set_drops : forall w x, pi (set_drops w x) = pi w.
Hypothesis h_set_h : forall w x, pi (set_h w x) = pi w.
Hypothesis h_write_arch : forall w q d ai r, pi (write_arch w q d ai r) = pi w.

Lemma r_ev_drop w t tag ev : pi (ev_drop w t tag ev) = pi w.
Proof. unfold ev_drop, drop_cval, log_drop. repeat break_match; rewrite ?h_set_drops; reflexivity. Qed.
Lemma r_reserve w : pi (res_world (reserve w)) = pi w.
Proof. unfold reserve. repeat break_match; cbn [res_world]; rewrite ?h_set_res; reflexivity. Qed.
Lemma hf_swalks w0 : swalks (fun w => pi w = pi w0).
Proof. split; intros; [rewrite h_set_h|rewrite h_write_arch|rewrite r_reserve|rewrite r_ev_drop]; assumption. Qed.
End HandlerFrame.

Section Body.
Variable P : world -> list qitem -> option fail -> Prop.
Variable S : bool -> N -> N -> Prop.
Variable E : fail -> Prop.
Hypothesis HW : bwalks P S E.
Local Notation P_upd := (wk_upd _ _ _ HW).
Local Notation P_push := (wk_push _ _ _ HW).
Local Notation P_spawn := (wk_spawn _ _ _ HW).
Local Notation P_stop := (wk_stop _ _ _ HW).
Local Notation P_unwind := (wk_unwind _ _ _ HW).
Local Notation E_panic := (wk_panic _ _ _ HW).

Lemma body_rule ps : sends ps S -> forall acts t fresh pre sent w, P w (pre ++ sent) None ->
  let r := run_actions acts ps t fresh sent w in P (snd (fst r)) (pre ++ fst (fst r)) (snd r).
Proof.
  intros HS acts t fresh pre. revert t fresh. induction acts as [|a rest IH]; intros t fresh sent w HP; cbn zeta; cbn [run_actions]; [exact HP|].
  assert (HP0 : P (snd (use_fuel w)) (pre ++ sent) None) by (unfold use_fuel; destruct (k_fuel (w_h w) =? 0); [exact HP|exact (P_upd _ _ _ _ _ HP)]).
  destruct (use_fuel w) as [ok w0]. cbn [snd] in HP0. destruct ok; cbn [negb]; [|now apply IH].
  set (G := fun r : list qitem * world * option fail => P (snd (fst r)) (pre ++ fst (fst r)) (snd r)).
  assert (Hnone : forall (o : option (option N)) x y, G x -> G y -> G match o with None => x | _ => y end) by (intros [[i|]|]; auto).
  assert (Hsend : forall tg tag target ev w' fresh', P w' (pre ++ sent) None -> ev_id ev = KEY_NULL ->
            G match sender_lookup ps tg tag with
              | None => run_actions rest ps t fresh' sent w'
              | Some None => (sent, ev_drop w' tg tag ev, Some (FPanic 3))
              | Some (Some idx) => run_actions rest ps t fresh' (sent ++ [mkQ tg idx target ev]) w'
              end).
  { intros tg tag target ev w' fresh' HP' Hev. destruct (sender_lookup ps tg tag) as [[idx|]|] eqn:El; unfold G; [apply IH; rewrite app_assoc; apply (P_push _ _ tg tag); auto| |now apply IH].
    apply P_unwind, P_stop; [apply E_panic|exact HP']. }
  assert (Hser : P (snd (fresh_serial w0)) (pre ++ sent) None) by exact (P_upd _ _ _ _ _ HP0).
  match goal with |- P (snd (fst ?M)) _ _ => change (G M) end. destruct a as [g|tt tg| |tt k|tt k|tt].
  - apply Hnone; [now apply IH|]. destruct (fresh_serial w0) as [s w1]. now apply Hsend.
  - apply Hnone; [now apply IH|]. destruct (fresh_serial w0) as [s w1]. now apply Hsend.
  - pose proof (P_stop _ _ _ (E_panic 3) HP0) as F3. destruct (sender_lookup ps false G_SPAWN) as [[idx|]|] eqn:El; [| |now apply IH];
      (destruct (reserve w0) as [id w1|f w1] eqn:Er; [|unfold reserve in Er; destruct (nki_next _ _) as [[[]]|]; inversion Er; subst; (apply P_stop; [apply E_panic|exact HP0])]).
    + apply IH. rewrite app_assoc. exact (P_upd _ _ _ _ _ (P_spawn _ _ _ _ _ (HS _ _ _ El) Er HP0)).
    + pose proof (proj2 (P_unwind _ _ _ F3)) as X. now rewrite Er in X.
  - apply Hnone; [now apply IH|]. assert (Hc : P (snd (new_cval w0 k)) (pre ++ sent) None) by (unfold new_cval; destruct (ctag_zst k); [exact HP0|exact Hser]).
    destruct (new_cval w0 k) as [v w1]. now apply Hsend.
  - now apply Hsend.
  - now apply Hsend.
Qed.

End Body.

Lemma apply_writes_keeps (Q : world -> Prop) : (forall w q d ai r, Q w -> Q (write_arch w q d ai r)) ->
  forall w ps loc d, Q w -> Q (apply_writes w ps loc d).
Proof.
  intros Hw w ps loc d HQ. unfold apply_writes. destruct (d =? 0); [exact HQ|]. revert w HQ. induction ps as [|p ps IH]; intros w HQ; cbn [fold_left]; [exact HQ|].
  apply IH. destruct p as [m|m q c|k q c|g t]; auto. destruct k; auto. revert w HQ. induction c as [|ce c IHc]; intros w HQ; cbn [fold_left]; auto.
Qed.

Section Handler.
Variable P : world -> list qitem -> option fail -> Prop.
Variable S : bool -> N -> N -> Prop.
Variable E : fail -> Prop.
Hypothesis HW : walks P S E.
Variable beh : hinfo -> logent -> N -> script.

Lemma handler_rule w h it tag loc sent : sends (h_params h) S -> (forall f, param_views w (h_params h) loc = inl f -> E f) ->
  P w sent None -> let r := run_handler beh w h it tag loc in P (snd r) (sent ++ hr_sent (fst r)) (hr_fail (fst r)).
Proof.
  intros HS HV HP. cbn zeta. unfold run_handler. destruct (param_views w (h_params h) loc) as [f|[ritems views]].
  { cbn [fst snd hr_sent hr_fail]. rewrite app_nil_r. apply (wk_stop _ _ _ HW); auto. }
  match goal with |- context [run_actions ?a ?b ?c ?d [] ?x0] =>
    assert (HP2 : P x0 (sent ++ []) None)
      by (rewrite app_nil_r; apply (apply_writes_keeps (fun w => P w sent None)); [intros; now apply (wk_write _ _ _ HW)|apply (wk_enter _ _ _ HW _ _ _ HP)]);
    pose proof (body_rule P S E HW b HS a c d sent [] x0 HP2) as Hra; cbn zeta in Hra; destruct (run_actions a b c d [] x0) as [[s w3] fl] end.
  cbn [fst snd] in Hra. destruct fl as [f|]; [exact Hra|]. destruct (_ =? _); [apply (wk_stop _ _ _ HW); [apply (wk_panic _ _ _ HW)|]|]; exact Hra.
Qed.
End Handler.

(* a taker's only failure is FPanic 6, the panic the harness injects after the body ([k_panic_at]) *)
Lemma run_handler_ev beh w h it tag loc : let r := fst (run_handler beh w h it tag loc) in
  ev_ser (hr_ev r) = ev_ser (qi_ev it) /\ ev_id (hr_ev r) = ev_id (qi_ev it) /\
  (hr_taken r = true -> (hr_fail r = None \/ hr_fail r = Some (FPanic 6)) /\ took beh it tag).
Proof.
  cbn zeta. unfold run_handler. destruct (param_views w (h_params h) loc) as [f|[ritems views]]; [repeat split; discriminate|].
  destruct (run_actions _ _ _ _ _ _) as [[s w3] fl].
  assert (Hev : forall (b : bool) (ev : evv) x, ev_ser (if b then mkEv (ev_ser ev) x (ev_id ev) else ev) = ev_ser ev /\
                  ev_id (if b then mkEv (ev_ser ev) x (ev_id ev) else ev) = ev_id ev) by (intros [] ev x; split; reflexivity).
  destruct fl as [f|]; [|destruct (_ =? _)]; cbn [fst hr_ev hr_taken hr_fail]; (split; [apply Hev|split; [apply Hev|]]); try discriminate;
    (intros Ht; apply andb_prop in Ht as [_ Ht]; split; [auto|]; do 3 eexists; split; [|split; [|exact Ht]]; reflexivity).
Qed.
Lemma run_handlers_ev beh hl : forall w it tag loc sent,
  let '(w1, ev, sent', taken, fl) := run_handlers beh hl w it tag loc sent in
  ev_ser ev = ev_ser (qi_ev it) /\ ev_id ev = ev_id (qi_ev it) /\
  (taken = true -> (fl = None \/ fl = Some (FPanic 6)) /\ took beh it tag).
Proof.
  induction hl as [|hk rest IH]; intros w it tag loc sent; cbn [run_handlers]; [repeat split; discriminate|].
  destruct (sm_get hk (w_hs w)) as [h|]; [|repeat split; discriminate].
  pose proof (run_handler_ev beh w h it tag loc) as H.
  destruct (run_handler beh w h it tag loc) as [r w1]. cbn zeta in H. cbn [fst] in H. destruct H as (A & B & C).
  destruct (hr_fail r) as [f|]; [exact (conj A (conj B C))|]. destruct (hr_taken r); [exact (conj A (conj B C))|].
  specialize (IH w1 (mkQ (qi_targeted it) (qi_idx it) (qi_target it) (hr_ev r)) tag loc (sent ++ hr_sent r)). cbn [qi_targeted qi_ev] in IH.
  destruct (run_handlers beh rest w1 _ tag loc (sent ++ hr_sent r)) as [[[[w2 ev] sent2] taken] fl]. destruct IH as (A' & B' & C').
  split; [congruence|]. split; [congruence|exact C'].
Qed.

Section StateWalk.
Variable Q : world -> Prop.
Hypothesis HQ : swalks Q.

Lemma sw_walks : walks (fun w _ _ => Q w) (fun _ _ _ => True) (fun _ => True).
Proof.
  destruct HQ as [Hh Hw Hr Hd]. split; [split|..]; auto.
  - intros w s ids fuel ser. apply Hh.
  - intros w s id w1 idx _ Er H. apply Hr in H. now rewrite Er in H.
  - intros w s le. apply Hh.
Qed.

Lemma sw_run_actions acts ps t fresh sent w : Q w -> Q (snd (fst (run_actions acts ps t fresh sent w))).
Proof. exact (body_rule _ _ _ sw_walks ps (fun _ _ _ _ => I) acts t fresh [] sent w). Qed.

Variable beh : hinfo -> logent -> N -> script.

Lemma sw_run_handler w h it tag loc : Q w -> Q (snd (run_handler beh w h it tag loc)).
Proof. exact (handler_rule _ _ _ sw_walks beh w h it tag loc [] (fun _ _ _ _ => I) (fun _ _ => I)). Qed.
End StateWalk.

Definition registries (w : world) := (w_gev w, w_gby w, w_tev w, w_tby w, w_glists w).

(* Structure: which entities exist, where they are stored and with which components.
   Handler bodies can write component values and push events, nothing else (C09). *)
Definition rshape (r : key * list cval) : key * nat := (fst r, length (snd r)).
Definition ashape (e : sentry) : (list N * list (key * nat) * list (N * N) * list (N * N)) + N :=
  match e with SOcc a => inl (a_comps a, map rshape (a_rows a), a_ins a, a_rem a) | SVac v => inr v end.
Definition structure (w : world) :=
  (w_cby w, w_ents w, w_comps w, map ashape (sl_entries (w_archs w)), sl_next (w_archs w), w_aby w).

(* ... and with the handler registry and the per-archetype refresh / listener tables included:
   handler bodies cannot change which handlers exist or who listens where (C08, C15) *)
Definition ashapeL (e : sentry) : (N * N * N * list N * list (key * nat) * list (N * N) * list (N * N) * list key * list (N * hlist key)) + N :=
  match e with SOcc a => inl (a_uid a, a_cap a, a_epoch a, a_comps a, map rshape (a_rows a), a_ins a, a_rem a, a_refresh a, a_listeners a) | SVac v => inr v end.
Definition structureL (w : world) :=
  (w_hs w, w_horder w, w_hctr w, w_glists w, w_hby w, w_cby w, w_ents w, w_comps w, map ashapeL (sl_entries (w_archs w)), sl_next (w_archs w), w_aby w).

Lemma map_ashapeL_nset l : forall i a a',
  nget l i = Some (SOcc a) -> ashapeL (SOcc a') = ashapeL (SOcc a) ->
  map ashapeL (nset l i (SOcc a')) = map ashapeL l.
Proof.
  induction l as [|h t IH]; intros i a a' Hg Hc; cbn [nset map]; [reflexivity|].
  cbn [nget] in Hg. destruct (i =? 0).
  - inversion Hg; subst. cbn [map]. now rewrite Hc.
  - cbn [map]. f_equal. eapply IH; eauto.
Qed.

Lemma bump_vals_length zst comps muts d vals : length (bump_vals zst comps muts d vals) = length vals.
Proof.
  unfold bump_vals. rewrite app_length, map_length, combine_length, skipn_length. lia.
Qed.

Lemma sl_write_arch w q d ai r : structureL (write_arch w q d ai r) = structureL w.
Proof.
  unfold write_arch. destruct (slab_get (w_archs w) ai) as [a|] eqn:Ha; [|reflexivity].
  destruct (arch_state (has_of a) q) as [st|]; [|reflexivity].
  unfold structureL, slab_get in *. cbn. destruct (nget (sl_entries (w_archs w)) ai) as [[a0|]|] eqn:Hg; try discriminate.
  inversion Ha; subst a0. f_equal. f_equal. f_equal.
  eapply map_ashapeL_nset; [exact Hg|]. cbn [ashapeL a_uid a_cap a_epoch a_comps a_ins a_rem a_rows a_refresh a_listeners set_rows]. f_equal. f_equal. f_equal. f_equal. f_equal. f_equal.
  destruct r as [r|].
  - destruct (nget (a_rows a) r) as [[e vals]|] eqn:Hr; [|reflexivity].
    generalize (bump_vals (fun c => ctag_zst (comp_tag w c)) (a_comps a) (amuts st) d vals) (bump_vals_length (fun c => ctag_zst (comp_tag w c)) (a_comps a) (amuts st) d vals).
    intros vals' Hlen. clear -Hr Hlen. revert r Hr. induction (a_rows a) as [|x t IH]; intros r Hr; cbn in *; [discriminate|].
    destruct (r =? 0); [inversion Hr; subst; cbn; unfold rshape; cbn; now rewrite Hlen|]. cbn. f_equal. eapply IH; eauto.
  - rewrite map_map. apply map_ext. intros [e vals]. unfold rshape. cbn [fst snd]. now rewrite bump_vals_length.
Qed.

(* a change that leaves the extended structure and the event registries alone: the ledger, the notification log, the
   harness state, the reservation cursor, the reset counter, the values in the rows; no handler makes any other *)
Definition quiet (w w' : world) : Prop := structureL w' = structureL w /\ registries w' = registries w.
Lemma quiet_refl w : quiet w w. Proof. split; reflexivity. Qed.
Lemma quiet_trans w0 w1 w2 : quiet w0 w1 -> quiet w1 w2 -> quiet w0 w2.
Proof. intros [A B] [C D]. split; congruence. Qed.
Lemma quiet_fields w w' : quiet w w' ->
  w_hs w' = w_hs w /\ w_ents w' = w_ents w /\ w_comps w' = w_comps w /\ w_gev w' = w_gev w /\ w_tev w' = w_tev w.
Proof. unfold quiet, structureL, registries. intros [A B]. injection A as -> _ _ _ _ _ -> -> _ _ _. injection B as -> _ -> _ _. repeat split. Qed.
Lemma quiet_swalks w : swalks (quiet w).
Proof.
  apply swalks_and; apply hf_swalks; try reflexivity; [exact sl_write_arch|].
  intros; unfold write_arch; repeat break_match; reflexivity.
Qed.

Section Handlers.
Variable P : world -> list qitem -> option fail -> Prop.
Variable S : bool -> N -> N -> Prop.
Variable E : fail -> Prop.
Hypothesis HW : walks P S E.
Variable beh : hinfo -> logent -> N -> script.

(* what [handlers_rule] needs of each handler of the list, in whatever world [w'] those before it have left *)
Definition ready (hl : list key) (loc : eloc) (w : world) : Prop :=
  forall hk w', In hk hl -> quiet w w' ->
    match sm_get hk (w_hs w') with
    | None => E (FUB 1084)
    | Some h => sends (h_params h) S /\ forall f, param_views w' (h_params h) loc = inl f -> E f
    end.

Lemma handlers_rule hl : forall w it tag loc sent, ready hl loc w -> P w sent None ->
  let '(w1, ev, sent', taken, fl) := run_handlers beh hl w it tag loc sent in
  exists w', P w' sent' fl /\ quiet w w' /\ w1 = if taken then ev_drop w' (qi_targeted it) tag ev else w'.
Proof.
  induction hl as [|hk rest IH]; intros w it tag loc sent HR HP; cbn [run_handlers].
  { exists w. auto using quiet_refl. }
  pose proof (HR hk w (or_introl eq_refl) (quiet_refl w)) as Hk. destruct (sm_get hk (w_hs w)) as [h|].
  2:{ exists w. split; [now apply (wk_stop _ _ _ HW)|auto using quiet_refl]. }
  pose proof (handler_rule _ _ _ HW beh w h it tag loc sent (proj1 Hk) (proj2 Hk) HP) as H1.
  pose proof (sw_run_handler _ (quiet_swalks w) beh w h it tag loc (quiet_refl w)) as K1.
  destruct (run_handler beh w h it tag loc) as [r w1]. cbn [fst snd] in H1, K1.
  destruct (hr_fail r) as [f|]; [exists w1; auto|]. destruct (hr_taken r); [exists w1; auto|].
  specialize (IH w1 (mkQ (qi_targeted it) (qi_idx it) (qi_target it) (hr_ev r)) tag loc (sent ++ hr_sent r)). cbn [qi_targeted] in IH.
  destruct (run_handlers beh rest w1 _ tag loc (sent ++ hr_sent r)) as [[[[w2 ev] sent2] taken] fl].
  destruct IH as (w' & A & B & C); [|exact H1|exists w'; eauto using quiet_trans].
  intros hk' w' Hin K2. apply HR; [now right|eauto using quiet_trans].
Qed.
End Handlers.

Lemma ready_any (S : bool -> N -> N -> Prop) (E : fail -> Prop) hl loc w : (forall a b c, S a b c) -> (forall f, E f) -> ready S E hl loc w.
Proof. intros HS HE hk w' _ _. destruct (sm_get hk (w_hs w')); [split; repeat intro; auto|auto]. Qed.

Lemma sw_run_handlers (Q : world -> Prop) (HQ : swalks Q) beh hl w it tag loc sent :
  Q w -> Q (fst (fst (fst (fst (run_handlers beh hl w it tag loc sent))))).
Proof.
  intros H0. pose proof (handlers_rule _ _ _ (sw_walks Q HQ) beh hl w it tag loc sent (ready_any _ _ hl loc w (fun _ _ _ => I) (fun _ => I)) H0) as H.
  destruct (run_handlers beh hl w it tag loc sent) as [[[[w1 ev] sent'] taken] fl]. destruct H as (w' & H & _ & ->). cbn [fst]. destruct taken; [now apply (sw_drop _ HQ)|exact H].
Qed.

(* One delivery, one propagation.  A fact of world, events sent and failure together: [deliver_one_rule] with a [walks]
   ([deliver_finish_rule] is its part after the look-ups).  A fact of the world and the failure: [sw_deliver_one] with a
   [swalks], at [quiet_swalks w] when all that matters of the handlers is that they were quiet; [r_deliver_one] is its instance
   for an observation.  A propagation: [flush_w_exit] on the stack machine (an invariant of world, queue and trace, and what an
   abort leaves), [flush_w_keeps] when it is a predicate of the world, [flush_cases] from the machine to [flush], [flush_rule]
   at [flush] for world, queued items and failure.  For an invariant of the tower: Steps.v ([kept_deliver_one], [kept_flush]). *)
Section Delivery.
Variable beh : hinfo -> logent -> N -> script.

(* the part of [deliver_one] that follows the look-ups *)
Definition deliver_finish (it : qitem) (w : world) (tag : N) (kind : ekind) (hl : list key) (loc : eloc)
  : list qitem * world * option fail :=
  let '(w1, ev, sent, taken, fl) := run_handlers beh hl w it tag loc [] in
  match fl with
  | Some f => (sent, (if taken then w1 else ev_drop w1 (qi_targeted it) tag ev), Some f)
  | None =>
      if taken then (sent, w1, None) else
      match kind with
      | KNormal => (sent, ev_drop w1 (qi_targeted it) tag ev, None)
      | _ => let '(w3, f) := fail_of (builtin_effect kind ev loc w1) in (sent, w3, f)
      end
  end.

Lemma deliver_one_eq it w : deliver_one beh it w =
  if qi_targeted it then
    match get_by_index (w_tev w) (qi_idx it) with
    | None => ([], w, Some (FUB 1056))
    | Some (_, info) =>
        match sm_get (qi_target it) (w_ents w) with
        | None => ([], ev_drop w true (e_tag info) (qi_ev it), None)
        | Some loc =>
            match slab_get (w_archs w) (fst loc) with
            | None => ([], w, Some (FUB 1069))
            | Some a => deliver_finish it w (e_tag info) (e_kind info) (listeners_of a (qi_idx it)) loc
            end
        end
    end
  else
    match get_by_index (w_gev w) (qi_idx it) with
    | None => ([], w, Some (FUB 1045))
    | Some (_, info) =>
        match nget (w_glists w) (qi_idx it) with
        | None => ([], w, Some (FUB 1048))
        | Some l => deliver_finish it w (e_tag info) (e_kind info) (hl_entries l) (U32MAX, U32MAX)
        end
    end.
Proof. reflexivity. Qed.

Lemma deliver_finish_rule P S E (HW : walks P S E) it w tag kind hl loc (R : list qitem * world * option fail -> Prop) :
  ready S E hl loc w -> P w [] None ->
  (forall w1 ev s fl, P w1 s fl -> quiet w w1 -> ev_ser ev = ev_ser (qi_ev it) -> ev_id ev = ev_id (qi_ev it) ->
     (fl = None -> kind = KNormal \/ took beh it tag) -> R (s, ev_drop w1 (qi_targeted it) tag ev, fl)) ->
  (forall w1 ev s, P w1 s None -> quiet w w1 -> ev_ser ev = ev_ser (qi_ev it) -> ev_id ev = ev_id (qi_ev it) -> kind <> KNormal ->
     R (s, res_world (builtin_effect kind ev loc w1), snd (fail_of (builtin_effect kind ev loc w1)))) ->
  R (deliver_finish it w tag kind hl loc).
Proof.
  intros HR HP Hd He. unfold deliver_finish.
  pose proof (handlers_rule P S E HW beh hl w it tag loc [] HR HP) as H. pose proof (run_handlers_ev beh hl w it tag loc []) as Hev.
  destruct (run_handlers beh hl w it tag loc []) as [[[[w1 ev] s] taken] fl]. destruct H as (w' & H & K & ->). destruct Hev as (E1 & E2 & E3).
  destruct fl as [f|]; [destruct taken; apply Hd; auto; discriminate|].
  destruct taken; [apply Hd; auto; intros _; right; exact (proj2 (E3 eq_refl))|].
  destruct kind; try (specialize (He w' ev s H K E1 E2 ltac:(discriminate)); destruct (builtin_effect _ ev loc w'); exact He).
  apply Hd; auto.
Qed.

Definition item_reg (w : world) (it : qitem) : option (key * einfo) :=
  if qi_targeted it then get_by_index (w_tev w) (qi_idx it) else get_by_index (w_gev w) (qi_idx it).

(* where the built-in effect of a queued item applies: at the target's location, looked up before the handlers ran *)
Definition item_loc (w : world) (it : qitem) (loc : eloc) : Prop :=
  if qi_targeted it then sm_get (qi_target it) (w_ents w) = Some loc else loc = (U32MAX, U32MAX).

(* a whole delivery: a look-up fails unchecked; or the event is dropped, after the handlers or at once because its target
   is dead; or the handlers are followed by the built-in effect *)
Lemma deliver_one_rule P S E (HW : walks P S E) it w (R : list qitem * world * option fail -> Prop) :
  (forall hl loc, ready S E hl loc w) -> P w [] None ->
  (forall s, R ([], w, Some (FUB s))) ->
  (forall k info w1 ev s fl, item_reg w it = Some (k, info) -> P w1 s fl -> quiet w w1 ->
     ev_ser ev = ev_ser (qi_ev it) -> ev_id ev = ev_id (qi_ev it) ->
     (fl = None -> e_kind info = KNormal \/ took beh it (e_tag info) \/ qi_targeted it = true /\ sm_get (qi_target it) (w_ents w) = None) ->
     R (s, ev_drop w1 (qi_targeted it) (e_tag info) ev, fl)) ->
  (forall k info loc w1 ev s, item_reg w it = Some (k, info) -> item_loc w it loc -> P w1 s None -> quiet w w1 ->
     ev_ser ev = ev_ser (qi_ev it) -> ev_id ev = ev_id (qi_ev it) -> e_kind info <> KNormal ->
     R (s, res_world (builtin_effect (e_kind info) ev loc w1), snd (fail_of (builtin_effect (e_kind info) ev loc w1)))) ->
  R (deliver_one beh it w).
Proof.
  intros HR HP Hub Hd He.
  assert (Hfin : forall k info hl loc, item_reg w it = Some (k, info) -> item_loc w it loc -> R (deliver_finish it w (e_tag info) (e_kind info) hl loc)).
  { intros k info hl loc Hr Hl. apply (deliver_finish_rule P S E HW); [apply HR|exact HP| |]; intros; [eapply Hd|eapply He]; eauto. intros Hn. tauto. }
  rewrite deliver_one_eq. unfold item_reg, item_loc in *. destruct (qi_targeted it).
  - destruct (get_by_index (w_tev w) (qi_idx it)) as [[k info]|]; [|apply Hub].
    destruct (sm_get (qi_target it) (w_ents w)) as [loc|]; [|apply (Hd k info w (qi_ev it) [] None); auto using quiet_refl].
    destruct (slab_get (w_archs w) (fst loc)); [now apply (Hfin k)|apply Hub].
  - destruct (get_by_index (w_gev w) (qi_idx it)) as [[k info]|]; [|apply Hub]. destruct (nget (w_glists w) (qi_idx it)); [now apply (Hfin k)|apply Hub].
Qed.

Lemma sw_deliver_one Q (HQ : swalks Q) (R : world -> option fail -> Prop) it w :
  (forall w' fl, Q w' -> R w' fl) ->
  (forall k info ev loc w1, item_reg w it = Some (k, info) -> item_loc w it loc -> e_kind info <> KNormal -> Q w1 -> quiet w w1 ->
     R (res_world (builtin_effect (e_kind info) ev loc w1)) (snd (fail_of (builtin_effect (e_kind info) ev loc w1)))) ->
  Q w -> R (snd (fst (deliver_one beh it w))) (snd (deliver_one beh it w)).
Proof.
  intros H1 H2 H0. apply (deliver_one_rule _ _ _ (sw_walks Q HQ)) with (R := fun r => R (snd (fst r)) (snd r));
    [intros; apply ready_any; repeat intro; exact I|exact H0|intros; now apply H1|intros; now apply H1, (sw_drop _ HQ)|intros; eapply H2; eauto].
Qed.

End Delivery.

Section Propagation.
Variable beh : hinfo -> logent -> N -> script.

Lemma aborted_has_failure n q s acc tr s' :
  Loop.flush wst qitem (run_w beh) unwind_w n q s acc = Some (tr, s', Aborted) -> snd s' <> None.
Proof.
  intros H. apply flush_abort_queue in H. destruct H as (rest & e & sent & st1 & st0 & Hr & ->).
  unfold run_w in Hr. destruct (deliver_one beh e (fst st0)) as [[sn w1] fl]. inversion Hr; subst.
  destruct fl as [f|]; [|discriminate]. unfold unwind_w. cbn [snd fst]. destruct f; cbn; discriminate.
Qed.

Lemma flush_cases q w (R : res unit -> Prop) :
  R (RFail (FPanic 8) w) ->
  (forall tr w1 fl, Loop.flush wst qitem (run_w beh) unwind_w FUEL q (w, None) [] = Some (tr, (w1, fl), Finished) ->
     R (ROk tt (set_resets w1 (w_resets w1 + 1)))) ->
  (forall tr w1 f, Loop.flush wst qitem (run_w beh) unwind_w FUEL q (w, None) [] = Some (tr, (w1, Some f), Aborted) ->
     R (RFail f w1)) ->
  R (flush beh q w).
Proof.
  intros H8 Hf Ha. unfold flush, flush_loop.
  destruct (Loop.flush wst qitem (run_w beh) unwind_w FUEL q (w, None) []) as [[[tr [w1 fl]] oc]|] eqn:E; [|exact H8].
  destruct oc; [exact (Hf _ _ _ eq_refl)|]. pose proof (aborted_has_failure _ _ _ _ _ _ E) as Hab. cbn [snd] in Hab.
  destruct fl as [f|]; [exact (Ha _ _ _ eq_refl)|now contradiction Hab].
Qed.

(* [Loop.flush_exit] with [run_w] and [unwind_w] unfolded *)
Lemma flush_w_exit (I : world -> list qitem -> list qitem -> Prop) (X : world -> option fail -> list qitem -> Prop) :
  (forall rest e w tr, I w (rest ++ [e]) tr ->
     match deliver_one beh e w with
     | (sent, w1, None) => I w1 (rest ++ rev sent) (tr ++ [e])
     | (sent, w1, Some (FPanic k)) => X (res_world (spawn_all (unwind_queue (rest ++ sent) w1))) (Some (FPanic k)) (tr ++ [e])
     | (sent, w1, Some (FUB u)) => X w1 (Some (FUB u)) (tr ++ [e])
     end) ->
  forall n q (st : wst) acc tr st' oc, Loop.flush wst qitem (run_w beh) unwind_w n q st acc = Some (tr, st', oc) -> I (fst st) q acc ->
    match oc with Finished => I (fst st') [] tr | Aborted => X (fst st') (snd st') tr end.
Proof.
  intros Hd. apply (flush_exit (run_w beh) unwind_w (fun s => I (fst s)) (fun s => X (fst s) (snd s))).
  intros rest e s tr HI. specialize (Hd rest e (fst s) tr HI). unfold run_w, unwind_w.
  destruct (deliver_one beh e (fst s)) as [[sent w1] [[k|u]|]]; cbn [fst snd]; [destruct (spawn_all _)|..]; exact Hd.
Qed.

Lemma flush_w_keeps (P : world -> Prop) :
  (forall it w, P w -> P (snd (fst (deliver_one beh it w)))) ->
  (forall q w, P w -> P (res_world (spawn_all (unwind_queue q w)))) ->
  forall n q (st : wst) acc tr st' oc, Loop.flush wst qitem (run_w beh) unwind_w n q st acc = Some (tr, st', oc) -> P (fst st) -> P (fst st').
Proof.
  intros Hd Hu n q st acc tr st' oc H HP.
  assert (HF : match oc with Finished | Aborted => P (fst st') end); [|now destruct oc].
  refine (flush_w_exit (fun w _ _ => P w) (fun w _ _ => P w) _ n q st acc tr st' oc H HP).
  intros rest e w tr0 HI. specialize (Hd e w HI). destruct (deliver_one beh e w) as [[sent w1] [[k|u]|]]; [apply Hu|..]; exact Hd.
Qed.

Lemma flush_rule (P : world -> Prop) (Q : world -> qitem -> Prop) (E : fail -> Prop) q w :
  (forall it w0, P w0 -> Q w0 it ->
     P (snd (fst (deliver_one beh it w0))) /\
     (forall x, In x (fst (fst (deliver_one beh it w0))) -> Q (snd (fst (deliver_one beh it w0))) x) /\
     (forall x, Q w0 x -> Q (snd (fst (deliver_one beh it w0))) x) /\
     (forall f, snd (deliver_one beh it w0) = Some f -> E f)) ->
  (forall q0 w0, P w0 -> P (res_world (spawn_all (unwind_queue q0 w0)))) ->
  (forall w0, P w0 -> P (set_resets w0 (w_resets w0 + 1))) ->
  E (FPanic 8) ->
  P w -> (forall x, In x q -> Q w x) ->
  P (res_world (flush beh q w)) /\ match flush beh q w with RFail f _ => E f | ROk _ _ => True end.
Proof.
  intros Hd Hu Hr E8 HP HQ.
  assert (HF : forall tr s' oc, Loop.flush wst qitem (run_w beh) unwind_w FUEL q (w, None) [] = Some (tr, s', oc) ->
                 match oc with Finished => P (fst s') /\ (forall x, In x [] -> Q (fst s') x) | Aborted => P (fst s') /\ forall f, snd s' = Some f -> E f end).
  { intros tr s' oc Ef. refine (flush_w_exit (fun w0 q0 _ => P w0 /\ forall x, In x q0 -> Q w0 x) (fun w0 fl _ => P w0 /\ forall f, fl = Some f -> E f) _ _ _ _ _ _ _ _ Ef (conj HP HQ)).
    intros rest e w0 tr0 [Ps Qs]. destruct (Hd e w0 Ps (Qs e (in_elt e rest []))) as (A & B & C & D).
    destruct (deliver_one beh e w0) as [[sent w2] [[k|u]|]]; cbn [fst snd] in *; (split; [auto|]); [intros f [= <-]; now apply D..|].
    intros x Hin. apply in_app_or in Hin as [Hin|Hin]; [apply C, Qs, in_or_app; now left|apply B; now apply in_rev]. }
  apply flush_cases; [now split|..]; intros tr w1 fl Ef; apply HF in Ef as [A B]; cbn [fst snd res_world] in *; auto.
Qed.
End Propagation.

(* Generic in the observation [pi]: anything that the record updates used during event delivery
   leave alone is left alone by a whole flush. *)
Section Frame.
Context {T : Type} (pi : world -> T).
Hypothesis r_set_ents : forall w x, pi (set_ents w x) = pi w.
Hypothesis r_set_res : forall w a b, pi (set_res w a b) = pi w.
(* the handler registry is only touched by the refresh / removal notifications and by the registration
   of existing handlers with a new archetype; these three are hypotheses so that observations of the
   registry that they do keep (Listen.v) can be framed too *)
Hypothesis r_notify_refresh : forall w ai, pi (notify_refresh w ai) = pi w.
Hypothesis r_notify_remove_with : forall w ai a, pi (notify_remove_with w ai a) = pi w.
Hypothesis r_create_arch : forall w cs i r, pi (snd (create_arch w cs i r)) = pi w.
Hypothesis r_set_archs : forall w x, pi (set_archs w x) = pi w.
Hypothesis r_set_drops : forall w x, pi (set_drops w x) = pi w.
Hypothesis r_set_h : forall w x, pi (set_h w x) = pi w.
Hint Rewrite r_set_ents r_set_res r_set_archs r_set_drops r_set_h : frame.
Ltac rs := autorewrite with frame; try reflexivity.

Lemma r_log_drop w c s : pi (log_drop w c s) = pi w. Proof. apply r_set_drops. Qed.
Lemma r_drop_cval w t v : pi (drop_cval w t v) = pi w. Proof. unfold drop_cval. break_match; [apply r_log_drop|reflexivity]. Qed.
Lemma r_notify_remove w ai : pi (notify_remove w ai) = pi w. Proof. unfold notify_remove. break_match; [apply r_notify_remove_with|reflexivity]. Qed.
Lemma r_upd_arch w ai f : pi (upd_arch w ai f) = pi w. Proof. unfold upd_arch. break_match; rs. Qed.
Lemma r_traverse_insert w s c : pi (res_world (traverse_insert w s c)) = pi w.
Proof. apply (traverse_insert_keeps (fun w' => pi w' = pi w)); [intros w1 i r <-; apply r_upd_arch|intros; apply r_create_arch|reflexivity]. Qed.
Lemma r_traverse_remove w s c : pi (res_world (traverse_remove w s c)) = pi w.
Proof. apply (traverse_remove_keeps (fun w' => pi w' = pi w)); [intros w1 i r <-; apply r_upd_arch|intros; apply r_create_arch|reflexivity]. Qed.
Lemma r_set_loc w e l : pi (res_world (set_loc w e l)) = pi w. Proof. unfold set_loc. break_match; cbn [res_world]; rs. Qed.
Lemma r_arch_spawn w e : pi (snd (arch_spawn w e)) = pi w.
Proof. rewrite arch_spawn_eq. unfold row_spawned. repeat break_match; cbn [snd]; rewrite ?r_notify_refresh; rs. Qed.

Lemma r_drop_fold l w : pi (fold_left (fun (w' : world) '(c, v) => drop_cval w' (comp_tag w' c) v) l w) = pi w.
Proof. apply (fold_left_pres pi). intros ? [? ?]. apply r_drop_cval. Qed.

Hint Rewrite r_log_drop r_drop_cval r_notify_refresh r_notify_remove_with r_notify_remove r_upd_arch
  r_traverse_insert r_traverse_remove r_set_loc r_drop_fold : frame.

Ltac pres :=
  repeat first
  [ progress cbn [res_world fst snd]
  | progress autorewrite with frame
  | match goal with H : pi ?w = pi _ |- context [pi ?w] => rewrite H end
  | reflexivity | assumption
  | match goal with |- pi (res_world (rbind _ _)) = _ => apply rbind_pres; [|intros ? ? ?] end
  | break_match ].

Lemma r_rebuilt w D A M : pi (rebuilt w D A M) = pi w.
Proof. rewrite rebuilt_eq. now rewrite r_set_ents, r_set_archs, r_set_drops. Qed.
Lemma r_move_entity w src dst nw : pi (res_world (move_entity w src dst nw)) = pi w.
Proof.
  destruct src as [sai srow]. destruct (move_entity_spec w sai srow dst nw); cbn [res_world]; try reflexivity; [| |apply r_rebuilt..].
  - now rewrite overwritten_eq, r_set_archs, r_set_drops.
  - unfold moved. cbv zeta. destruct (_ || _); rewrite ?r_notify_refresh; destruct (_ =? 0); rewrite ?r_notify_remove; apply r_rebuilt.
Qed.
Lemma r_remove_entity w loc : pi (res_world (remove_entity w loc)) = pi w.
Proof.
  destruct loc as [ai row]. destruct (remove_entity_spec w ai row); cbn [res_world]; try reflexivity; [|apply r_rebuilt..].
  unfold removed. cbv zeta. destruct (_ =? 0); rewrite ?r_notify_remove; apply r_rebuilt.
Qed.
Lemma r_spawn_all_n n w : pi (res_world (spawn_all_n n w)) = pi w.
Proof. apply (spawn_all_n_keeps (fun w' => pi w' = pi w)); [|reflexivity]. intros w0 k ents' _ <-. now rewrite r_set_ents, r_arch_spawn. Qed.
Lemma r_spawn_all w : pi (res_world (spawn_all w)) = pi w.
Proof. unfold spawn_all. apply rbind_pres; [apply r_spawn_all_n|intros ? ? H; cbn [res_world]; rewrite r_set_res; exact H]. Qed.
Lemma r_refresh_cursor w : pi (refresh_cursor w) = pi w. Proof. apply r_set_res. Qed.
Lemma r_fresh_serial w : pi (snd (fresh_serial w)) = pi w. Proof. apply r_set_h. Qed.
Lemma r_new_cval w k : pi (snd (new_cval w k)) = pi w. Proof. unfold new_cval. break_match; [reflexivity|]. unfold fresh_serial. cbn [snd]. rs. Qed.
Lemma r_use_fuel w : pi (snd (use_fuel w)) = pi w. Proof. unfold use_fuel. break_match; cbn [snd]; rs. Qed.
Lemma r_push_known w k : pi (push_known w k) = pi w. Proof. apply r_set_h. Qed.
Hint Rewrite r_move_entity r_remove_entity (r_reserve pi r_set_res) r_spawn_all r_refresh_cursor (r_ev_drop pi r_set_drops) r_push_known : frame.

Lemma r_write_arch w q d ai r : pi (write_arch w q d ai r) = pi w.
Proof. unfold write_arch. pres. Qed.
Hint Rewrite r_write_arch : frame.
Lemma r_swalks w0 : swalks (fun w => pi w = pi w0).
Proof. exact (hf_swalks pi r_set_res r_set_drops r_set_h r_write_arch w0). Qed.

Section WithBeh.
Variable beh : hinfo -> logent -> N -> script.

Lemma r_apply_writes w ps loc d : pi (apply_writes w ps loc d) = pi w.
Proof. exact (apply_writes_keeps (fun w' => pi w' = pi w) (fun w0 q d0 ai r H => eq_trans (r_write_arch w0 q d0 ai r) H) w ps loc d eq_refl). Qed.
Hint Rewrite r_apply_writes : frame.

Lemma r_run_handler w h it tag loc : pi (snd (run_handler beh w h it tag loc)) = pi w.
Proof. exact (sw_run_handler _ (r_swalks w) beh w h it tag loc eq_refl). Qed.

Lemma r_run_handlers hl : forall w it tag loc sent,
  pi (fst (fst (fst (fst (run_handlers beh hl w it tag loc sent))))) = pi w.
Proof. intros w it tag loc sent. exact (sw_run_handlers _ (r_swalks w) beh hl w it tag loc sent eq_refl). Qed.

Lemma r_builtin_effect k ev loc w : pi (res_world (builtin_effect k ev loc w)) = pi w.
Proof. apply (builtin_effect_keeps (fun w' => pi w' = pi w)); intros; pres; congruence. Qed.
Hint Rewrite r_builtin_effect : frame.

Lemma r_deliver_one it w : pi (snd (fst (deliver_one beh it w))) = pi w.
Proof.
  apply (sw_deliver_one beh _ (r_swalks w) (fun w' _ => pi w' = pi w)); [auto| |reflexivity].
  intros k info ev loc w1 _ _ _ E _. now rewrite r_builtin_effect.
Qed.

Lemma r_unwind_queue q : forall w, pi (unwind_queue q w) = pi w.
Proof. intros w. unfold unwind_queue. apply (fold_left_pres pi). intros. now apply r_ev_drop. Qed.

(* no delivery, at any depth, and no unwinding changes the observation *)
Theorem flush_frame n q w tr s' oc :
  Loop.flush wst qitem (run_w beh) unwind_w n q (w, None) [] = Some (tr, s', oc) ->
  pi (fst s') = pi w.
Proof.
  intros H. refine (flush_w_keeps beh (fun w' => pi w' = pi w) _ _ n q (w, None) [] tr s' oc H eq_refl).
  - intros it w0 E. now rewrite r_deliver_one.
  - intros q0 w0 E. now rewrite r_spawn_all, r_unwind_queue.
Qed.

Lemma r_flush q w : (forall w0 x, pi (set_resets w0 x) = pi w0) -> pi (res_world (flush beh q w)) = pi w.
Proof.
  intros Hr. apply flush_cases; cbn [res_world]; [reflexivity|..]; intros tr w1 fl E; apply flush_frame in E; [now rewrite Hr|exact E].
Qed.
End WithBeh.
End Frame.

Section Resets.
Variable beh : hinfo -> logent -> N -> script.

(* C20 on the model: the only arena reset of a top-level send is the one after the queue has
   been drained; no delivery, at any depth, and no unwinding performs one *)
Theorem flush_never_resets n q w tr s' oc :
  Loop.flush wst qitem (run_w beh) unwind_w n q (w, None) [] = Some (tr, s', oc) ->
  w_resets (fst s') = w_resets w.
Proof. apply (flush_frame w_resets); fr. Qed.

Corollary flush_loop_resets_once n q w w' :
  flush_loop beh n q w = (w', None) -> w_resets w' = w_resets w + 1.
Proof.
  unfold flush_loop. destruct (Loop.flush wst qitem (run_w beh) unwind_w n q (w, None) []) as [[[tr [w1 fl]] oc]|] eqn:E; [|discriminate].
  pose proof E as E2. apply flush_never_resets in E. cbn [fst] in E. destruct oc; intros H; inversion H; subst; cbn; [now rewrite E|].
  apply aborted_has_failure in E2. cbn in E2. congruence.
Qed.

Lemma deliver_one_keeps_registries it w : registries (snd (fst (deliver_one beh it w))) = registries w.
Proof. apply (r_deliver_one registries); fr. Qed.
Lemma spawn_all_keeps_registries w : registries (res_world (spawn_all w)) = registries w.
Proof. apply (r_spawn_all registries); fr. Qed.
Lemma unwind_queue_keeps_registries q w : registries (unwind_queue q w) = registries w.
Proof. apply (r_unwind_queue registries); fr. Qed.
End Resets.

Section StructureL.
Notation pi := structureL.

Lemma sl_set_res w a b : pi (set_res w a b) = pi w. Proof. reflexivity. Qed.
Lemma sl_set_drops w x : pi (set_drops w x) = pi w. Proof. reflexivity. Qed.
Lemma sl_set_h w x : pi (set_h w x) = pi w. Proof. reflexivity. Qed.
Lemma sl_log_drop w c s : pi (log_drop w c s) = pi w. Proof. reflexivity. Qed.
Lemma sl_ev_drop w t tag ev : pi (ev_drop w t tag ev) = pi w.
Proof. apply r_ev_drop; reflexivity. Qed.

Section WithBeh.
Variable beh : hinfo -> logent -> N -> script.

(* C09: all handlers of one delivery run on an unchanged structure: none of them can make the
   built-in change (or any other structural change) happen early *)
Theorem handlers_preserve_structureL hl : forall w it tag loc sent,
  pi (fst (fst (fst (fst (run_handlers beh hl w it tag loc sent))))) = pi w.
Proof. intros w it tag loc sent. exact (proj1 (sw_run_handlers _ (quiet_swalks w) beh hl w it tag loc sent (quiet_refl w))). Qed.

Theorem consumed_event_has_no_effectL it w hl tag loc :
  forall w1 ev sent, run_handlers beh hl w it tag loc [] = (w1, ev, sent, true, None) -> pi w1 = pi w.
Proof. intros w1 ev sent H. pose proof (handlers_preserve_structureL hl w it tag loc []) as Hs. rewrite H in Hs. exact Hs. Qed.

Theorem dead_target_has_no_effectL it w k info :
  qi_targeted it = true -> get_by_index (w_tev w) (qi_idx it) = Some (k, info) -> sm_get (qi_target it) (w_ents w) = None ->
  pi (snd (fst (deliver_one beh it w))) = pi w /\ fst (fst (deliver_one beh it w)) = [] /\ k_log (w_h (snd (fst (deliver_one beh it w)))) = k_log (w_h w).
Proof.
  intros Ht Hg Hn. unfold deliver_one. rewrite Ht, Hg, Hn. cbn [fst snd]. rewrite sl_ev_drop. split; [reflexivity|split; [reflexivity|]].
  unfold ev_drop, drop_cval. repeat break_match; reflexivity.
Qed.
End WithBeh.
End StructureL.

Lemma structure_of_L w w' : structureL w' = structureL w -> structure w' = structure w.
Proof.
  unfold structureL, structure. intros H. injection H as _ _ _ _ _ E1 E2 E3 E4 E5 E6. rewrite E1, E2, E3, E5, E6. do 3 f_equal.
  revert E4. apply map_eq_factor. intros [a|v] [a'|v'] E; cbn [ashapeL ashape] in *; congruence.
Qed.

Section Structure.
Notation pi := structure.

Lemma s_set_res w a b : pi (set_res w a b) = pi w. Proof. reflexivity. Qed.
Lemma s_set_drops w x : pi (set_drops w x) = pi w. Proof. reflexivity. Qed.
Lemma s_set_h w x : pi (set_h w x) = pi w. Proof. reflexivity. Qed.
Lemma s_log_drop w c s : pi (log_drop w c s) = pi w. Proof. reflexivity. Qed.

Lemma map_ashape_nset l : forall i a a',
  nget l i = Some (SOcc a) -> ashape (SOcc a') = ashape (SOcc a) ->
  map ashape (nset l i (SOcc a')) = map ashape l.
Proof.
  induction l as [|h t IH]; intros i a a' Hg Hc; cbn [nset map]; [reflexivity|].
  cbn [nget] in Hg. destruct (i =? 0).
  - inversion Hg; subst. cbn [map]. now rewrite Hc.
  - cbn [map]. f_equal. eapply IH; eauto.
Qed.

Section WithBeh.
Variable beh : hinfo -> logent -> N -> script.

(* C09: all handlers of one delivery run on an unchanged structure: none of them can make the
   built-in change (or any other structural change) happen early *)
Theorem handlers_preserve_structure hl : forall w it tag loc sent,
  pi (fst (fst (fst (fst (run_handlers beh hl w it tag loc sent))))) = pi w.
Proof. intros. apply structure_of_L, handlers_preserve_structureL. Qed.

Theorem consumed_event_has_no_effect it w hl tag loc :
  forall w1 ev sent, run_handlers beh hl w it tag loc [] = (w1, ev, sent, true, None) -> pi w1 = pi w.
Proof. intros w1 ev sent H. pose proof (handlers_preserve_structure hl w it tag loc []) as Hs. rewrite H in Hs. exact Hs. Qed.

Theorem dead_target_has_no_effect it w k info :
  qi_targeted it = true -> get_by_index (w_tev w) (qi_idx it) = Some (k, info) -> sm_get (qi_target it) (w_ents w) = None ->
  pi (snd (fst (deliver_one beh it w))) = pi w /\ fst (fst (deliver_one beh it w)) = [] /\ k_log (w_h (snd (fst (deliver_one beh it w)))) = k_log (w_h w).
Proof.
  intros Ht Hg Hn. destruct (dead_target_has_no_effectL beh it w k info Ht Hg Hn) as (A & B & C). split; [now apply structure_of_L|now split].
Qed.
End WithBeh.
End Structure.
