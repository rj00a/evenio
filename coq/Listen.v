(* Listen.v : the listener tables (C08, C15, C17).
     LInv: in every archetype, the listener list of a targeted event index holds, without
           repetition, exactly the live handlers whose receiver is an event with that index and
           whose filter matches the archetype's component set; the global list of an event index
           holds exactly the live handlers receiving that global event;
     HInv: the handler registry is coherent (stored key, insertion order list, order counter).
   Both are invariants of every call of the driver, for every handler behaviour; hence the
   handlers a delivery runs are exactly the live handlers that should receive the event. *)
From Coq Require Import List NArith Bool Lia Sorted.
Import ListNotations.
Require Import EV.Base EV.ListN EV.Access EV.Query EV.QueryInd EV.SlotMap EV.Reserve EV.HList EV.Loop EV.World EV.SlotMapGet
  EV.ArchProofs EV.WorldFrame EV.Layer EV.Store EV.Register EV.Graph EV.Effects EV.Reach EV.Steps EV.RemoveComp EV.Member.
Require EV.HListProofs.
Open Scope N_scope.

(* [gshape g] is Member's [aview g] (by conversion); its lemmas are used at [lview] below *)
Section GShape.
Context {T : Type} (g : arch -> T).
Hypothesis g_rows : forall a r, g (set_rows a r) = g a.

Definition gshape_entry (e : sentry) : option T := match e with SOcc a => Some (g a) | SVac _ => None end.
Definition gshape (s : slab) : list (option T) := map gshape_entry (sl_entries s).

Lemma gshape_write_arch w q d ai r : gshape (w_archs (write_arch w q d ai r)) = gshape (w_archs w).
Proof.
  unfold write_arch. destruct (slab_get (w_archs w) ai) as [a|] eqn:Ha; [|reflexivity].
  destruct (arch_state (has_of a) q); [|reflexivity]. cbn [w_archs set_archs]. eapply (aview_set g); [exact Ha|apply g_rows].
Qed.
End GShape.

Section GShapeOps.
Context {T : Type} (g : arch -> T).
Hypothesis g_rows : forall a r, g (set_rows a r) = g a.
Hypothesis g_cap : forall a c e, g (set_cap a c e) = g a.
Hypothesis g_edges : forall a i r, g (set_edges a i r) = g a.

Lemma gshape_arch_at w w' : gshape g (w_archs w') = gshape g (w_archs w) ->
  forall ai, option_map g (arch_at w' ai) = option_map g (arch_at w ai).
Proof. exact (aview_arch_at g w w'). Qed.
Lemma gshape_set s i a0 a : slab_get s i = Some a0 -> g a = g a0 -> gshape g (slab_set s i a) = gshape g s.
Proof. exact (aview_set g s i a0 a). Qed.
Lemma gshape_upd_edges w ai i r : gshape g (w_archs (upd_arch w ai (fun a => set_edges a (i a) (r a)))) = gshape g (w_archs w).
Proof. apply (aview_upd_arch g). intros a. apply g_edges. Qed.
Lemma g_reserve_one a : g (fst (reserve_one a)) = g a.
Proof. unfold reserve_one. destruct (nlen (a_rows a) =? a_cap a); cbn [fst]; [apply g_cap|reflexivity]. Qed.
Lemma gshape_move_entity w src dst nw : gshape g (w_archs (res_world (move_entity w src dst nw))) = gshape g (w_archs w).
Proof. exact (aview_move_entity g g_rows g_cap w src dst nw). Qed.
Lemma gshape_remove_entity w loc : gshape g (w_archs (res_world (remove_entity w loc))) = gshape g (w_archs w).
Proof. exact (aview_remove_entity g g_rows w loc). Qed.
Lemma gshape_arch_spawn w e : gshape g (w_archs (snd (arch_spawn w e))) = gshape g (w_archs w).
Proof. exact (aview_arch_spawn g g_rows g_cap w e). Qed.
Lemma gshape_spawn_all_n n : forall w, gshape g (w_archs (res_world (spawn_all_n n w))) = gshape g (w_archs w).
Proof.
  intros w. apply (spawn_all_n_keeps (fun w' => gshape g (w_archs w') = gshape g (w_archs w))); [|reflexivity].
  intros w0 k ents' _ <-. apply gshape_arch_spawn.
Qed.
Lemma gshape_spawn_all w : gshape g (w_archs (res_world (spawn_all w))) = gshape g (w_archs w).
Proof. exact (aview_spawn_all g g_rows g_cap w). Qed.
End GShapeOps.

Definition hstat (h : hinfo) : hinfo := set_params h [].
Definition lview (a : arch) := (a_comps a, a_listeners a).
Definition lshape := gshape lview.
Lemma lview_rows a r : lview (set_rows a r) = lview a. Proof. reflexivity. Qed.
Lemma lview_cap a c e : lview (set_cap a c e) = lview a. Proof. reflexivity. Qed.
Lemma lview_edges a i r : lview (set_edges a i r) = lview a. Proof. reflexivity. Qed.

Definition sview {V W} (f : V -> W) (m : smap V) := (map (fun s => (gen s, link s, option_map f (val s))) (slots m), next_free m).

Lemma sview_sget {V W} (f : V -> W) (m m' : smap V) i : sview f m' = sview f m ->
  option_map (fun s => (gen s, link s, option_map f (val s))) (sget (slots m') i) = option_map (fun s => (gen s, link s, option_map f (val s))) (sget (slots m) i).
Proof. intros H. injection H as Hm _. exact (slots_view_sget f m m' i Hm). Qed.

Lemma sview_get {V W} (f : V -> W) (m m' : smap V) k : sview f m' = sview f m -> option_map f (sm_get k m') = option_map f (sm_get k m).
Proof.
  intros H. injection H as Hm _. exact (slots_view_get f m m' k Hm).
Qed.

Lemma sview_inv {V W} (f : V -> W) (m m' : smap V) : sview f m' = sview f m -> SmInv m -> SmInv m'.
Proof.
  intros H ((c & Hc & Hnd) & Hok & Hb). pose proof H as H0. unfold sview in H0. injection H0 as Hm Hn.
  assert (Hlen : length (slots m') = length (slots m)) by (rewrite <- (map_length (fun s : slot V => (gen s, link s, option_map f (val s))) (slots m')), Hm; apply map_length).
  assert (Hs : forall i s', sget (slots m') i = Some s' -> exists s, sget (slots m) i = Some s /\ gen s' = gen s /\ link s' = link s /\ (val s' = None <-> val s = None)).
  { intros i s' Hi. pose proof (sview_sget f m m' i H) as E. rewrite Hi in E. destruct (sget (slots m) i) as [s|]; cbn in E; [|discriminate].
    injection E as Eg El Ev. exists s. repeat split; auto; intros X; rewrite X in Ev; cbn in Ev; [destruct (val s)|destruct (val s')]; cbn in Ev; congruence. }
  assert (Hs2 : forall i s, sget (slots m) i = Some s -> exists s', sget (slots m') i = Some s' /\ gen s' = gen s /\ link s' = link s).
  { intros i s Hi. pose proof (sview_sget f m m' i H) as E. rewrite Hi in E. destruct (sget (slots m') i) as [s'|]; cbn in E; [|discriminate].
    injection E as Eg El Ev. exists s'. repeat split; assumption. }
  split; [|split].
  - exists c. split; [|exact Hnd]. rewrite Hn.
    assert (Hch : forall h c0, chain (slots m) h c0 -> chain (slots m') h c0).
    { intros h c0 X. induction X as [|i s rest Hg He Hz Hc' IH]; [constructor|].
      destruct (Hs2 _ _ Hg) as (s' & Hg' & Eg & El). econstructor; [exact Hg'|now rewrite Eg|now rewrite Eg|rewrite El; exact IH]. }
    now apply Hch.
  - intros i s' Hi. destruct (Hs _ _ Hi) as (s & Hg & Eg & _ & Ev). destruct (Hok _ _ Hg) as [A B]. split; [now rewrite Eg|].
    rewrite Eg. rewrite B. split; intros X Y; apply X; tauto.
  - now rewrite Hlen.
Qed.

Definition hlive (w : world) (hk : key) (h : hinfo) : Prop := sm_get hk (w_hs w) = Some h.
Definition glist_of (w : world) (idx : N) : list key := match nget (w_glists w) idx with Some l => hl_entries l | None => [] end.

Definition HInv (w : world) : Prop :=
  SmInv (w_hs w) /\
  (forall hk h, hlive w hk h -> h_key h = hk /\ In (h_order h, hk) (w_horder w) /\ h_order h < w_hctr w) /\
  (forall o hk, In (o, hk) (w_horder w) -> exists h, hlive w hk h /\ h_order h = o) /\
  NoDup (map snd (w_horder w)) /\ NoDup (map fst (w_horder w)).

Definition LInv (w : world) : Prop :=
  (forall ai a idx, arch_at w ai = Some a ->
     NoDup (listeners_of a idx) /\
     forall hk, In hk (listeners_of a idx) <->
       exists h ek, hlive w hk h /\ h_recv h = RvTargeted ek /\ fst ek = idx /\ ca_matches (arch_has a) (h_filter h) = true) /\
  (forall idx, NoDup (glist_of w idx) /\
     forall hk, In hk (glist_of w idx) <-> exists h ek, hlive w hk h /\ h_recv h = RvGlobal ek /\ fst ek = idx).

(* the receiver of a live handler is a live event *)
Definition RcvInv (w : world) : Prop :=
  forall hk h, hlive w hk h ->
    match h_recv h with
    | RvGlobal ek => sm_get ek (w_gev w) <> None
    | RvTargeted ek => sm_get ek (w_tev w) <> None
    end.

Definition HL (w : world) : Prop := HInv w /\ LInv w.

(* what HL depends on of the handler registry; [ereg] is what RcvInv depends on besides *)
Definition hreg (w : world) := (sview hstat (w_hs w), w_horder w, w_hctr w, w_glists w).
Definition ereg (w : world) := (sview (fun _ : einfo => tt) (w_gev w), sview (fun _ : einfo => tt) (w_tev w)).

Lemma hstat_fields h : h_key (hstat h) = h_key h /\ h_order (hstat h) = h_order h /\ h_recv (hstat h) = h_recv h /\ h_filter (hstat h) = h_filter h.
Proof. repeat split. Qed.

Lemma hreg_parts w w' : hreg w' = hreg w ->
  sview hstat (w_hs w') = sview hstat (w_hs w) /\ w_horder w' = w_horder w /\ w_hctr w' = w_hctr w /\ w_glists w' = w_glists w.
Proof.
  intros H. repeat split.
  - exact (f_equal (fun t => fst (fst (fst t))) H). - exact (f_equal (fun t => snd (fst (fst t))) H).
  - exact (f_equal (fun t => snd (fst t)) H). - exact (f_equal snd H).
Qed.
Lemma ereg_parts w w' : ereg w' = ereg w ->
  sview (fun _ : einfo => tt) (w_gev w') = sview (fun _ : einfo => tt) (w_gev w) /\ sview (fun _ : einfo => tt) (w_tev w') = sview (fun _ : einfo => tt) (w_tev w).
Proof. intros H. split; [exact (f_equal fst H)|exact (f_equal snd H)]. Qed.

Lemma hreg_live w w' hk h' : hreg w' = hreg w -> hlive w' hk h' -> exists h, hlive w hk h /\ hstat h' = hstat h.
Proof.
  unfold hlive. intros H Hl. destruct (hreg_parts w w' H) as (Hv & _). pose proof (sview_get hstat (w_hs w) (w_hs w') hk Hv) as E. rewrite Hl in E.
  destruct (sm_get hk (w_hs w)) as [h|]; cbn in E; [|discriminate]. exists h. split; [reflexivity|congruence].
Qed.

Lemma stat_eq h h' : hstat h' = hstat h -> h_key h' = h_key h /\ h_order h' = h_order h /\ h_recv h' = h_recv h /\ h_filter h' = h_filter h.
Proof. intros E. pose proof (f_equal h_key E). pose proof (f_equal h_order E). pose proof (f_equal h_recv E). pose proof (f_equal h_filter E). auto. Qed.

Lemma ereg_live w w' : ereg w' = ereg w -> (forall k, sm_get k (w_gev w') <> None <-> sm_get k (w_gev w) <> None) /\ (forall k, sm_get k (w_tev w') <> None <-> sm_get k (w_tev w) <> None).
Proof.
  intros H. destruct (ereg_parts w w' H) as [Hg Ht].
  split; intros k; [pose proof (sview_get (fun _ : einfo => tt) (w_gev w) (w_gev w') k Hg) as E|pose proof (sview_get (fun _ : einfo => tt) (w_tev w) (w_tev w') k Ht) as E];
    match goal with |- ?a <> None <-> ?b <> None => destruct a, b end; cbn in E; split; congruence.
Qed.

Definition lmatch (hs : smap hinfo) (cs_has : N -> bool) (idx : N) (x : key) : Prop :=
  exists h ek, sm_get x hs = Some h /\ h_recv h = RvTargeted ek /\ fst ek = idx /\ ca_matches cs_has (h_filter h) = true.

Lemma hlive_equiv w w' : hreg w' = hreg w ->
  (forall hk h', hlive w' hk h' -> exists h, hlive w hk h /\ hstat h' = hstat h) /\
  (forall hk h, hlive w hk h -> exists h', hlive w' hk h' /\ hstat h' = hstat h).
Proof.
  intros Hh. split; [intros; eapply hreg_live; eauto|]. intros hk h Hl. destruct (hreg_live w' w hk h (eq_sym Hh) Hl) as (h' & A & B). eauto.
Qed.

Lemma HInv_ext w w' : hreg w' = hreg w -> HInv w -> HInv w'.
Proof.
  intros Hh (S & H1 & H2 & H3 & H4). destruct (hreg_parts w w' Hh) as (Hv & Ho & Hc & Hg). destruct (hlive_equiv w w' Hh) as [Hfw Hbw].
  split; [eapply sview_inv; eauto|]. rewrite Ho, Hc. split; [|split; [|auto]].
  - intros hk h' Hl. destruct (Hfw _ _ Hl) as (h & Hl0 & Es). destruct (stat_eq _ _ Es) as (A & B & _). rewrite A, B. now apply H1.
  - intros o hk Hin. destruct (H2 o hk Hin) as (h & Hl & Eo). destruct (Hbw _ _ Hl) as (h' & Hl' & Es). exists h'. split; [exact Hl'|].
    destruct (stat_eq _ _ Es) as (_ & B & _). congruence.
Qed.
Lemma RcvInv_ext w w' : hreg w' = hreg w -> ereg w' = ereg w -> RcvInv w -> RcvInv w'.
Proof.
  intros Hh He R hk h' Hl. destruct (hlive_equiv w w' Hh) as [Hfw _]. destruct (ereg_live w w' He) as [Eg Et].
  destruct (Hfw _ _ Hl) as (h & Hl0 & Es). destruct (stat_eq _ _ Es) as (_ & _ & C & _). rewrite C. specialize (R hk h Hl0).
  destruct (h_recv h); [now apply Eg|now apply Et].
Qed.
Lemma lmatch_equiv w w' has idx x : hreg w' = hreg w -> (lmatch (w_hs w') has idx x <-> lmatch (w_hs w) has idx x).
Proof.
  intros Hh. destruct (hlive_equiv w w' Hh) as [Hfw Hbw]. unfold lmatch. split.
  - intros (h' & ek & Hl & Hr & Hi & Hf). destruct (Hfw _ _ Hl) as (h & Hl0 & Es). destruct (stat_eq _ _ Es) as (_ & _ & C & D). exists h, ek. rewrite <- C, <- D. auto.
  - intros (h & ek & Hl & Hr & Hi & Hf). destruct (Hbw _ _ Hl) as (h' & Hl' & Es). destruct (stat_eq _ _ Es) as (_ & _ & C & D). exists h', ek. rewrite C, D. auto.
Qed.
Lemma LInv_global_ext w w' : hreg w' = hreg w ->
  (forall idx, NoDup (glist_of w idx) /\ forall hk, In hk (glist_of w idx) <-> exists h ek, hlive w hk h /\ h_recv h = RvGlobal ek /\ fst ek = idx) ->
  (forall idx, NoDup (glist_of w' idx) /\ forall hk, In hk (glist_of w' idx) <-> exists h ek, hlive w' hk h /\ h_recv h = RvGlobal ek /\ fst ek = idx).
Proof.
  intros Hh L2 idx. destruct (hreg_parts w w' Hh) as (_ & _ & _ & Hg). destruct (hlive_equiv w w' Hh) as [Hfw Hbw].
  unfold glist_of. rewrite Hg. destruct (L2 idx) as [Hnd Hm]. split; [exact Hnd|]. intros hk. unfold glist_of in Hm. rewrite Hm. split.
  - intros (h & ek & Hl & Hr & Hi). destruct (Hbw _ _ Hl) as (h' & Hl' & Es). destruct (stat_eq _ _ Es) as (_ & _ & C & _). exists h', ek. rewrite C. auto.
  - intros (h' & ek & Hl & Hr & Hi). destruct (Hfw _ _ Hl) as (h & Hl0 & Es). destruct (stat_eq _ _ Es) as (_ & _ & C & _). exists h, ek. rewrite <- C. auto.
Qed.

(* LInv's archetype clause in terms of lmatch *)
Lemma LInv_arch_iff w : (forall ai a idx, arch_at w ai = Some a -> NoDup (listeners_of a idx) /\ forall hk, In hk (listeners_of a idx) <-> lmatch (w_hs w) (arch_has a) idx hk) <->
  (forall ai a idx, arch_at w ai = Some a ->
     NoDup (listeners_of a idx) /\
     forall hk, In hk (listeners_of a idx) <->
       exists h ek, hlive w hk h /\ h_recv h = RvTargeted ek /\ fst ek = idx /\ ca_matches (arch_has a) (h_filter h) = true).
Proof. unfold lmatch, hlive. tauto. Qed.

Lemma HL_sub w w' : hreg w' = hreg w ->
  (forall j a', arch_at w' j = Some a' -> exists a, arch_at w j = Some a /\ lview a' = lview a) -> HL w -> HL w'.
Proof.
  intros Hh Hsub (HI & (L1 & L2)). split; [eapply HInv_ext; eauto|]. split; [|eapply LInv_global_ext; eauto].
  pose proof (proj2 (LInv_arch_iff w) L1) as L1'. apply (proj1 (LInv_arch_iff w')).
  intros ai a' idx Ha'. destruct (Hsub _ _ Ha') as (a & Ha & Ev). injection Ev as Ec El.
  assert (Elo : listeners_of a' idx = listeners_of a idx) by (unfold listeners_of; now rewrite El).
  assert (Eh : arch_has a' = arch_has a) by (unfold arch_has; now rewrite Ec).
  destruct (L1' ai a idx Ha) as [Hnd Hm]. rewrite Elo, Eh. split; [exact Hnd|]. intros hk. rewrite Hm. symmetry. now apply lmatch_equiv.
Qed.
Lemma HL_shape w w' : hreg w' = hreg w -> lshape (w_archs w') = lshape (w_archs w) -> HL w -> HL w'.
Proof.
  intros Hh Hs. apply HL_sub; [exact Hh|]. intros j a' Ha'. pose proof (aview_arch_at lview w w' Hs j) as E. rewrite Ha' in E.
  destruct (arch_at w j) as [a|]; [|discriminate]. exists a. split; [reflexivity|]. cbn in E. congruence.
Qed.
Lemma HL_ext w w' : hreg w' = hreg w -> ereg w' = ereg w -> lshape (w_archs w') = lshape (w_archs w) -> HL w -> HL w'.
Proof. intros A _. now apply HL_shape. Qed.
Lemma HL_frame w w' : hreg w' = hreg w -> ereg w' = ereg w -> lshape (w_archs w') = lshape (w_archs w) -> HL w -> HL w'.
Proof. intros A _. now apply HL_shape. Qed.

Lemma sview_upd_index {V W} (f : V -> W) (m : smap V) i (u : V -> V) : (forall v, f (u v) = f v) -> sview f (upd_by_index m i u) = sview f m.
Proof.
  intros Hu. unfold sview. f_equal; [now apply (slots_view_upd f)|]. unfold upd_by_index. now repeat break_match.
Qed.
Lemma sview_upd_key {V W} (f : V -> W) (m : smap V) k (u : V -> V) : (forall v, f (u v) = f v) -> sview f (upd_by_key m k u) = sview f m.
Proof. intros Hu. unfold upd_by_key. destruct (sm_get k m); [now apply sview_upd_index|reflexivity]. Qed.
Lemma sview_fold_upd_key {V W} (f : V -> W) (u : key -> V -> V) ks : (forall k v, f (u k v) = f v) -> forall (m : smap V),
  sview f (fold_left (fun hs hk => upd_by_key hs hk (u hk)) ks m) = sview f m.
Proof. intros Hu. induction ks as [|k ks IH]; intros m; cbn [fold_left]; [reflexivity|]. rewrite IH. apply sview_upd_key. apply Hu. Qed.

(* A parameter without its cache, a handler without its caches.  Between a handler's entry and its exit only its caches change,
   so every view of the handler table that does not look into them ([hstat], Fetch.hview2, NoUB.hview3) is a function of
   [hskel], and what leaves [hfix] alone leaves them all alone. *)
Definition pstat (p : rparam) : rparam :=
  match p with RRecvT m q _ => RRecvT m q [] | RFetch k q _ => RFetch k q [] | _ => p end.
Definition hskel (h : hinfo) : hinfo := set_params h (map pstat (h_params h)).
Definition hfix (w : world) := (sview hskel (w_hs w), w_horder w, w_hctr w, w_glists w).

Lemma sview_resp {V W X} (f : V -> W) (h : V -> X) (m m' : smap V) : (forall v v', f v' = f v -> h v' = h v) ->
  sview f m' = sview f m -> sview h m' = sview h m.
Proof.
  intros R H. unfold sview in *. injection H as Hm Hn. f_equal; [|exact Hn]. revert Hm. apply map_eq_factor. intros s s' E. injection E as Eg El Ev.
  rewrite Eg, El. f_equal. destruct (val s'), (val s); cbn in *; try discriminate; [|reflexivity]. injection Ev as Ev. now rewrite (R _ _ Ev).
Qed.

Lemma hskel_params h g : (forall p, pstat (g p) = pstat p) -> hskel (set_params h (map g (h_params h))) = hskel h.
Proof. intros H. unfold hskel, set_params. cbn. f_equal. rewrite map_map. apply map_ext, H. Qed.
Lemma hskel_refresh ai a h : hskel (h_refresh ai a h) = hskel h.
Proof. apply hskel_params. intros p. destruct p; cbn [param_refresh]; try reflexivity; destruct (arch_state (arch_has a) q); reflexivity. Qed.
Lemma hskel_remove_arch ai h : hskel (h_remove_arch ai h) = hskel h.
Proof. apply hskel_params. intros p. destruct p; reflexivity. Qed.
Lemma hstat_refresh ai a h : hstat (h_refresh ai a h) = hstat h. Proof. reflexivity. Qed.
Lemma hstat_remove_arch ai h : hstat (h_remove_arch ai h) = hstat h. Proof. reflexivity. Qed.
Lemma hstat_register ai a h : hstat (snd (register_handler ai a h)) = hstat h.
Proof. exact (register_handler_static ai a h). Qed.

Definition hsk (w : world) := sview hskel (w_hs w).
Lemma hsk_hfix w w' : hfix w' = hfix w -> hsk w' = hsk w.
Proof. intros H. exact (f_equal (fun x => fst (fst (fst x))) H). Qed.
Lemma skel_view {W} (f : hinfo -> W) w w' : (forall h, f (hskel h) = f h) -> hsk w' = hsk w -> sview f (w_hs w') = sview f (w_hs w).
Proof. intros Hf. apply sview_resp. intros v v' E. now rewrite <- (Hf v'), <- (Hf v), E. Qed.
Lemma hreg_hfix w w' : hfix w' = hfix w -> hreg w' = hreg w.
Proof.
  intros H. pose proof (skel_view hstat w w' (fun _ => eq_refl) (hsk_hfix w w' H)) as A. unfold hfix in H. injection H as _ _ B C D.
  unfold hreg. now rewrite A, B, C, D.
Qed.

Lemma hfix_notify_refresh w ai : hfix (notify_refresh w ai) = hfix w.
Proof.
  unfold notify_refresh. destruct (slab_get (w_archs w) ai) as [a|]; [|reflexivity]. unfold hfix. cbn [w_hs w_horder w_hctr w_glists set_hs].
  do 3 f_equal. apply (sview_fold_upd_key hskel (fun _ => h_refresh ai a)). intros. apply hskel_refresh.
Qed.
Lemma hfix_notify_remove_with w ai a : hfix (notify_remove_with w ai a) = hfix w.
Proof.
  unfold notify_remove_with, hfix. cbn [w_hs w_horder w_hctr w_glists set_hs].
  do 3 f_equal. apply (sview_fold_upd_key hskel (fun _ => h_remove_arch ai)). intros. apply hskel_remove_arch.
Qed.

(* the fold of Archetype::register_handler over the handlers in insertion order *)
Definition reg_step (ai : N) : arch * smap hinfo -> N * key -> arch * smap hinfo :=
  fun '(a, hs) '(_, hk) =>
  match sm_get hk hs with
  | Some h => let '(a', h') := register_handler ai a h in (a', upd_by_key hs hk (fun _ => h'))
  | None => (a, hs) end.

Lemma reg_fold_new ai L hs a : nlen (a_rows a) = 0 -> fold_left (reg_step ai) L (a, hs) = (regs_a hs L a, hs).
Proof. apply reg_fold_empty_eq. Qed.

Lemma sview_upd_key_at {V W} (f : V -> W) (m : smap V) k (u : V -> V) v0 : sm_get k m = Some v0 -> f (u v0) = f v0 -> sview f (upd_by_key m k u) = sview f m.
Proof.
  intros Hg Hu. unfold upd_by_key. rewrite Hg. destruct (sm_get_some_inv _ _ _ Hg) as (s & Hs & _ & Hv).
  unfold sview, upd_by_index. rewrite Hs, Hv. cbn [slots next_free]. f_equal. eapply supd_map; [exact Hs|]. cbn [gen link val option_map]. now rewrite Hv, Hu.
Qed.

Lemma sview_reg_fold ai l : forall a hs, sview hstat (snd (fold_left (reg_step ai) l (a, hs))) = sview hstat hs.
Proof.
  induction l as [|[o hk] l IH]; intros a hs; cbn [fold_left]; [reflexivity|]. unfold reg_step at 2.
  destruct (sm_get hk hs) as [h|] eqn:E; [|apply IH]. pose proof (hstat_register ai a h) as Hs. destruct (register_handler ai a h) as [a' h']. cbn [snd] in Hs.
  rewrite IH. eapply sview_upd_key_at; [exact E|exact Hs].
Qed.

Lemma hfix_create_arch w cs ins rem : hfix (snd (create_arch w cs ins rem)) = hfix w.
Proof. now rewrite create_arch_eq. Qed.

Lemma hreg_notify_refresh w ai : hreg (notify_refresh w ai) = hreg w.
Proof. exact (hreg_hfix _ _ (hfix_notify_refresh w ai)). Qed.
Lemma hreg_notify_remove_with w ai a : hreg (notify_remove_with w ai a) = hreg w.
Proof. exact (hreg_hfix _ _ (hfix_notify_remove_with w ai a)). Qed.
Lemma create_arch_reg w cs ins rem :
  let ai := slab_vacant_key (w_archs w) in
  let r := fold_left (reg_step ai) (w_horder w) (mkA (w_auid w) cs [] 0 0 ins rem [] [], w_hs w) in
  w_hs (snd (create_arch w cs ins rem)) = snd r /\
  w_archs (snd (create_arch w cs ins rem)) = slab_insert (w_archs w) (fst r) /\
  w_horder (snd (create_arch w cs ins rem)) = w_horder w /\ w_hctr (snd (create_arch w cs ins rem)) = w_hctr w /\
  w_glists (snd (create_arch w cs ins rem)) = w_glists w /\ w_gev (snd (create_arch w cs ins rem)) = w_gev w /\ w_tev (snd (create_arch w cs ins rem)) = w_tev w.
Proof. cbv zeta. rewrite create_arch_eq, reg_fold_new by reflexivity. repeat split. Qed.
Lemma hreg_create_arch w cs ins rem : hreg (snd (create_arch w cs ins rem)) = hreg w.
Proof. exact (hreg_hfix _ _ (hfix_create_arch w cs ins rem)). Qed.

Ltac hfr := intros; first [reflexivity | apply hfix_notify_refresh | apply hfix_notify_remove_with | apply hfix_create_arch].

Lemma ereg_create_arch w cs ins rem : ereg (snd (create_arch w cs ins rem)) = ereg w.
Proof. now rewrite create_arch_eq. Qed.

Lemma ninsert_nodup {A} (l : list A) : forall i h, NoDup l -> ~ In h l -> NoDup (ninsert l i h).
Proof.
  induction l as [|y t IH]; intros i h Hnd Hn; cbn [ninsert]; [constructor; [intros []|constructor]|].
  destruct (i =? 0); [constructor; assumption|]. inversion Hnd; subst. constructor.
  - rewrite ninsert_in. intros [->|X]; [apply Hn; now left|contradiction].
  - apply IH; [assumption|]. intros X. apply Hn. now right.
Qed.
Lemma hl_insert_nodup {H} (l : hlist H) h p : NoDup (hl_entries l) -> ~ In h (hl_entries l) -> NoDup (hl_entries (hl_insert l h p)).
Proof.
  intros Hnd Hn. unfold hl_insert. destruct p; cbn [hl_entries]; try (now apply ninsert_nodup). now apply NoDup_app_snoc.
Qed.

Lemma reg_arch_has ai a h : arch_has (fst (register_handler ai a h)) = arch_has a.
Proof. now rewrite register_handler_fst. Qed.

Definition la_at (a : arch) (idx : N) : hlist key := match alookup idx (a_listeners a) with Some l => l | None => hl_new end.
Lemma listeners_la a idx : listeners_of a idx = hl_entries (la_at a idx).
Proof. unfold listeners_of, la_at. now destruct (alookup idx (a_listeners a)). Qed.

(* [h] receives the targeted event of index [idx] in an archetype whose component set is [has] *)
Definition listens (h : hinfo) (has : N -> bool) (idx : N) : bool :=
  match h_recv h with RvTargeted ek => (fst ek =? idx) && ca_matches has (h_filter h) | RvGlobal _ => false end.
Lemma lmatch_listens hs has idx x : lmatch hs has idx x <-> exists h, sm_get x hs = Some h /\ listens h has idx = true.
Proof.
  unfold lmatch, listens. split.
  - intros (h & ek & A & B & C & D). exists h. split; [exact A|]. now rewrite B, C, N.eqb_refl, D.
  - intros (h & A & B). destruct (h_recv h) as [ek|ek] eqn:Hr; [discriminate|]. apply andb_true_iff in B as [B1 B2]. apply N.eqb_eq in B1. exists h, ek. auto.
Qed.
Lemma listens_stat h h' has idx : hstat h' = hstat h -> listens h' has idx = listens h has idx.
Proof. intros E. destruct (stat_eq _ _ E) as (_ & _ & A & B). unfold listens. now rewrite A, B. Qed.

Lemma reg_stat ai a h h' : hstat h' = hstat h -> fst (register_handler ai a h') = fst (register_handler ai a h).
Proof. rewrite !register_handler_fst. apply reg_arch_static. Qed.
Lemma reg_la ai a h idx : la_at (fst (register_handler ai a h)) idx =
  if listens h (arch_has a) idx then hl_insert (la_at a idx) (h_key h) (h_prio h) else la_at a idx.
Proof.
  unfold register_handler, listens, la_at.
  destruct (ca_matches (arch_has a) (h_archfilter h)); destruct (h_recv h) as [ek|ek]; cbn [fst a_listeners set_tables]; try reflexivity;
    (destruct (ca_matches (arch_has a) (h_filter h)); rewrite ?andb_true_r, ?andb_false_r; cbn [fst a_listeners set_tables]; [|reflexivity]);
    unfold listeners_insert; (destruct (N.eqb_spec (fst ek) idx) as [<-|Hne];
      [destruct (alookup (fst ek) (a_listeners a)); now rewrite alookup_ainsert_eq
      |destruct (alookup (fst ek) (a_listeners a)); now rewrite alookup_ainsert_neq by (intros X; now apply Hne)]).
Qed.
Lemma reg_listeners_other ai a h idx :
  (forall ek, h_recv h = RvTargeted ek -> fst ek <> idx) -> listeners_of (fst (register_handler ai a h)) idx = listeners_of a idx.
Proof.
  intros Hne. rewrite !listeners_la, reg_la. unfold listens. destruct (h_recv h) as [ek|ek]; [reflexivity|].
  destruct (N.eqb_spec (fst ek) idx) as [X|X]; [now destruct (Hne ek eq_refl)|reflexivity].
Qed.
Lemma reg_listeners ai a h idx : NoDup (listeners_of a idx) -> ~ In (h_key h) (listeners_of a idx) ->
  NoDup (listeners_of (fst (register_handler ai a h)) idx) /\
  forall x, In x (listeners_of (fst (register_handler ai a h)) idx) <-> In x (listeners_of a idx) \/ (x = h_key h /\ listens h (arch_has a) idx = true).
Proof.
  rewrite !listeners_la, reg_la. intros Hnd Hn. destruct (listens h (arch_has a) idx).
  - split; [now apply hl_insert_nodup|]. intros x. rewrite hl_insert_in. tauto.
  - split; [exact Hnd|]. intros x. split; [tauto|]. intros [X|[_ X]]; [exact X|discriminate].
Qed.
Lemma reg_listeners_nodup ai a h ek : h_recv h = RvTargeted ek ->
  NoDup (listeners_of a (fst ek)) -> ~ In (h_key h) (listeners_of a (fst ek)) -> NoDup (listeners_of (fst (register_handler ai a h)) (fst ek)).
Proof. intros _ Hnd Hn. exact (proj1 (reg_listeners ai a h (fst ek) Hnd Hn)). Qed.

Lemma reg_fold_fst ai (L : list (N * key)) hs0 : forall a hs, sview hstat hs = sview hstat hs0 ->
  fst (fold_left (reg_step ai) L (a, hs)) =
  fold_left (fun a (p : N * key) => match sm_get (snd p) hs0 with Some h => fst (register_handler ai a h) | None => a end) L a.
Proof.
  induction L as [|[o hk] L IH]; intros a hs Hv; cbn [fold_left snd]; [reflexivity|]. unfold reg_step at 2.
  pose proof (sview_get hstat hs0 hs hk Hv) as Eg.
  destruct (sm_get hk hs) as [h|] eqn:E; destruct (sm_get hk hs0) as [h0|]; cbn [option_map] in Eg; try discriminate; [|now apply IH].
  assert (Es : hstat h = hstat h0) by congruence. rewrite <- (reg_stat ai a h0 h Es). pose proof (hstat_register ai a h) as Hs.
  destruct (register_handler ai a h) as [a' h']. cbn [fst snd] in *. apply IH. rewrite <- Hv. eapply sview_upd_key_at; [exact E|exact Hs].
Qed.

Lemma reg_fold_listeners ai idx (L : list (N * key)) : forall a hs,
  NoDup (map snd L) -> (forall x, In x (map snd L) -> ~ In x (listeners_of a idx)) ->
  (forall hk h, sm_get hk hs = Some h -> h_key h = hk) -> NoDup (listeners_of a idx) ->
  let r := fold_left (reg_step ai) L (a, hs) in
  arch_has (fst r) = arch_has a /\ NoDup (listeners_of (fst r) idx) /\
  forall x, In x (listeners_of (fst r) idx) <-> In x (listeners_of a idx) \/ (In x (map snd L) /\ lmatch hs (arch_has a) idx x).
Proof.
  intros a hs Hnd Hfresh Hkey Hnda. cbn zeta. rewrite (reg_fold_fst ai L hs a hs eq_refl).
  revert a Hnd Hfresh Hnda. induction L as [|[o hk] L IH]; intros a Hnd Hfresh Hnda; cbn [fold_left map snd] in *.
  - split; [reflexivity|]. split; [exact Hnda|]. intros x. cbn [In]. tauto.
  - inversion Hnd as [|? ? Hni Hnd']; subst.
    set (a1 := match sm_get hk hs with Some h => fst (register_handler ai a h) | None => a end).
    (* what the step did to the list of [idx] *)
    assert (Hstep : arch_has a1 = arch_has a /\ NoDup (listeners_of a1 idx) /\
              forall x, In x (listeners_of a1 idx) <-> In x (listeners_of a idx) \/ (x = hk /\ lmatch hs (arch_has a) idx x)).
    { unfold a1. destruct (sm_get hk hs) as [h|] eqn:E.
      - pose proof (Hkey hk h E) as Hk. split; [apply reg_arch_has|].
        destruct (reg_listeners ai a h idx Hnda) as [A B]; [rewrite Hk; apply Hfresh; now left|]. split; [exact A|].
        intros x. rewrite B, Hk, lmatch_listens. split; (intros [X|[-> X]]; [now left|right; split; [reflexivity|]]).
        + exists h. auto.
        + destruct X as (h0 & Y & Z). congruence.
      - split; [reflexivity|]. split; [exact Hnda|]. intros x. rewrite lmatch_listens. split; [tauto|].
        intros [X|[-> (h0 & Y & _)]]; [exact X|congruence]. }
    destruct Hstep as (Hah & Hnd1 & Hin1).
    destruct (IH a1 Hnd') as (A & B & C); [|exact Hnd1|].
    { intros x Hx X. apply Hin1 in X as [X|[-> _]]; [exact (Hfresh x (or_intror Hx) X)|contradiction]. }
    split; [congruence|]. split; [exact B|]. intros x. rewrite C, Hin1, Hah. split.
    + intros [[X|[-> X]]|[X Y]]; [now left|right; split; [now left|exact X]|right; split; [now right|exact Y]].
    + intros [X|[[<-|X] Y]]; [left; now left|left; right; auto|right; auto].
Qed.

Lemma create_arch_HL w cs ins rem : HL w -> SlabInv (w_archs w) -> HL (snd (create_arch w cs ins rem)).
Proof.
  intros (HI & (L1 & L2)) Hs. destruct (create_arch_at w cs ins rem Hs) as [_ Hat]. revert Hat. rewrite create_arch_eq. cbn [snd]. intros Hat.
  set (vk := slab_vacant_key (w_archs w)) in *. set (a0 := mkA (w_auid w) cs [] 0 0 ins rem [] []) in *.
  (* the handler registry and the global lists are those of [w] *)
  split; [exact HI|]. split; [|exact L2].
  intros ai a idx Ha. rewrite Hat in Ha. destruct (ai =? vk); [|exact (L1 ai a idx Ha)].
  inversion Ha; subst a. destruct HI as (_ & H1 & _ & H3 & _).
  destruct (reg_fold_listeners vk idx (w_horder w) a0 (w_hs w) H3) as (A & B & C);
    [intros x _ []|intros hk h Hl; exact (proj1 (H1 hk h Hl))|constructor|].
  cbn zeta in A, B, C. rewrite (reg_fold_new vk (w_horder w) (w_hs w) a0 eq_refl) in A, B, C. cbn [fst] in A, B, C.
  split; [exact B|]. intros hk. rewrite C, A. change (listeners_of a0 idx) with (@nil key). split.
  - intros [[]|[_ X]]. exact X.
  - intros X. right. split; [|exact X]. destruct X as (h & ek & Hl & _). destruct (H1 hk h Hl) as (_ & Hin & _).
    apply in_map_iff. exists (h_order h, hk). auto.
Qed.

(* handler bodies: the extended structure is unchanged *)
Lemma structureL_views w w' : structureL w' = structureL w ->
  hreg w' = hreg w /\ lshape (w_archs w') = lshape (w_archs w) /\ structure w' = structure w.
Proof.
  intros H. split; [|split; [|now apply structure_of_L]]; unfold structureL in H; injection H as Hhs Hho Hhc Hgl _ _ _ _ Hsh _ _.
  - unfold hreg. now rewrite Hhs, Hho, Hhc, Hgl.
  - revert Hsh. apply map_eq_factor. intros [a|n] [a'|n'] E; cbn in *; unfold lview; congruence.
Qed.

Definition AInv (w : world) : Prop := FInv w /\ HL w.
(* SmInv of the global event registry, needed to know that registering an event keeps the others *)
Definition GInv (w : world) : Prop := SmInv (w_gev w).
Definition AI (w : world) : Prop := AInv w /\ GInv w.

Lemma AI_parts w : AI w -> FInv w /\ HL w /\ GInv w.
Proof. intros [[A B] C]. auto. Qed.

Lemma step_hfix w w' : step w w' -> hfix w' = hfix w.
Proof.
  intros [w0 w1 S|w0 cs i r _ _ _]; [|apply hfix_create_arch]. apply (sstep_frame hfix); try exact S; try hfr.
  intros x x' [A _]. unfold structureL in A. injection A as Hhs Hho Hhc Hgl _ _ _ _ _ _ _. unfold hfix. now rewrite Hhs, Hho, Hhc, Hgl.
Qed.
(* the handler registry (up to the caches) and the listener lists change only when an archetype is created *)
Lemma sstep_listen w w' : sstep w w' -> hreg w' = hreg w /\ lshape (w_archs w') = lshape (w_archs w).
Proof. intros S. split; [exact (hreg_hfix _ _ (step_hfix _ _ (st_same S)))|now apply (aview_sstep lview lview_rows lview_cap lview_edges)]. Qed.
Lemma HL_stable : stable (fun _ => True) HL.
Proof.
  intros w w' [w0 w1 S|w0 cs i r Hs _ _] _ HH; [|now apply create_arch_HL]. destruct (sstep_listen _ _ S) as [A B]. exact (HL_shape _ _ A B HH).
Qed.

Lemma HL_move_entity w src dst nw : HL w -> HL (res_world (move_entity w src dst nw)).
Proof. apply HL_shape; [apply hreg_hfix, (r_move_entity hfix); hfr|apply (aview_move_entity lview lview_rows lview_cap)]. Qed.
Lemma HL_remove_entity w loc : HL w -> HL (res_world (remove_entity w loc)).
Proof. apply HL_shape; [apply hreg_hfix, (r_remove_entity hfix); hfr|apply (aview_remove_entity lview lview_rows)]. Qed.
Lemma HL_spawn_all w : HL w -> HL (res_world (spawn_all w)).
Proof. exact (HL_stable _ _ (st_same (ss_spawn w)) I). Qed.
Lemma HL_upd_edges w ai i r : HL w -> HL (upd_arch w ai (fun a => set_edges a (i a) (r a))).
Proof. exact (HL_stable _ _ (st_same (ss_edges w ai i r)) I). Qed.
Lemma traverse_insert_HL w src c : HL w -> SlabInv (w_archs w) -> HL (res_world (traverse_insert w src c)).
Proof. intros H Hs. apply traverse_insert_keeps; [exact (fun w1 => HL_upd_edges w1 src)|intros; now apply create_arch_HL|exact H]. Qed.
Lemma traverse_remove_HL w src c : HL w -> SlabInv (w_archs w) -> HL (res_world (traverse_remove w src c)).
Proof. intros H Hs. apply traverse_remove_keeps; [exact (fun w1 => HL_upd_edges w1 src)|intros; now apply create_arch_HL|exact H]. Qed.
Lemma builtin_effect_HL kind ev loc w : HL w -> SlabInv (w_archs w) -> HL (res_world (builtin_effect kind ev loc w)).
Proof.
  intros H Hs. apply builtin_effect_keeps; intros; auto using traverse_insert_HL, traverse_remove_HL, HL_move_entity, HL_spawn_all, HL_remove_entity.
Qed.
Lemma HL_ev_drop w t tag ev : HL w -> HL (ev_drop w t tag ev).
Proof. exact (HL_stable _ _ (st_same (ss_quiet _ _ (quiet_ev_drop w t tag ev))) I). Qed.

Theorem deliver_one_HL beh it w : WInv w -> HL w -> HL (snd (fst (deliver_one beh it w))).
Proof. exact (stable_deliver_one beh HL HL_stable it w). Qed.


Lemma glist_nrepeat w gl n : w_glists w = gl -> forall idx,
  match nget (nrepeat_to gl n hl_new) idx with Some l => hl_entries l | None => [] end = glist_of w idx.
Proof.
  intros <- idx. unfold glist_of. rewrite nget_nrepeat_to. destruct (nget (w_glists w) idx); [reflexivity|]. now destruct (idx <? N.of_nat n).
Qed.

Definition gl_at (gl : list (hlist key)) (idx : N) : hlist key := match nget gl idx with Some l => l | None => hl_new end.
Lemma glist_gl w idx : glist_of w idx = hl_entries (gl_at (w_glists w) idx).
Proof. unfold glist_of, gl_at. now destruct (nget (w_glists w) idx). Qed.
Lemma gl_at_insert gl i k pr idx :
  let gl0 := nrepeat_to gl (N.to_nat i + 1) hl_new in
  gl_at (match nget gl0 i with Some l => nset gl0 i (hl_insert l k pr) | None => gl0 end) idx =
  if idx =? i then hl_insert (gl_at gl i) k pr else gl_at gl idx.
Proof.
  cbn zeta. set (gl0 := nrepeat_to gl (N.to_nat i + 1) hl_new).
  assert (Hg0 : forall j, gl_at gl0 j = gl_at gl j).
  { intros j. unfold gl_at, gl0. rewrite nget_nrepeat_to. destruct (nget gl j); [reflexivity|]. now destruct (j <? _). }
  assert (Hge : nget gl0 i = Some (gl_at gl i)).
  { unfold gl0, gl_at. rewrite nget_nrepeat_to. replace (i <? N.of_nat (N.to_nat i + 1)) with true by (symmetry; apply N.ltb_lt; lia). now destruct (nget gl i). }
  rewrite Hge. unfold gl_at at 1. destruct (N.eqb_spec idx i) as [->|Hne].
  - now rewrite nget_nset_eq by (eapply nget_some_lt; eauto).
  - rewrite nget_nset_neq by auto. apply Hg0.
Qed.

Lemma HL_conv_gl w w2 : w_hs w2 = w_hs w -> w_horder w2 = w_horder w -> w_hctr w2 = w_hctr w -> w_archs w2 = w_archs w ->
  (forall idx, glist_of w2 idx = glist_of w idx) ->
  HL w -> HL w2.
Proof.
  intros Ehs Eho Ehc Ear Egl ((S & H1 & H2 & H3) & (L1 & L2)). unfold HL, HInv, LInv, hlive, arch_at in *. rewrite Ehs, Eho, Ehc, Ear.
  split; [auto|]. split; [exact L1|]. intros idx. rewrite Egl. apply L2.
Qed.

Lemma HLG_fields w w' : w_hs w' = w_hs w -> w_horder w' = w_horder w -> w_hctr w' = w_hctr w -> w_archs w' = w_archs w ->
  w_glists w' = w_glists w -> w_gev w' = w_gev w -> HL w /\ GInv w -> HL w' /\ GInv w'.
Proof.
  intros A B C D E F [HH HG]. split.
  - apply (HL_conv_gl w w'); auto. intros idx; unfold glist_of; now rewrite E.
  - unfold GInv. now rewrite F.
Qed.
Lemma HL_GInv_conv w w' : w_hs w' = w_hs w -> w_horder w' = w_horder w -> w_hctr w' = w_hctr w -> w_archs w' = w_archs w ->
  w_glists w' = w_glists w -> w_gev w' = w_gev w ->
  (forall k, sm_get k (w_tev w) <> None -> sm_get k (w_tev w') <> None) -> HL w /\ GInv w -> HL w' /\ GInv w'.
Proof. intros A B C D E F _. now apply HLG_fields. Qed.

Lemma AI_same_hl w w' : FInv w' -> w_hs w' = w_hs w -> w_horder w' = w_horder w -> w_hctr w' = w_hctr w -> w_archs w' = w_archs w -> w_glists w' = w_glists w ->
  SmInv (w_gev w') -> AI w -> AI w'.
Proof.
  intros HF A B C D E G HA. destruct (AI_parts _ HA) as (_ & HH & _). split; [split; [exact HF|]|exact G].
  apply (HL_conv_gl w w'); auto. intros idx. unfold glist_of. now rewrite E.
Qed.

Lemma slab_iter_spec s ai a : In (ai, a) (slab_iter s) <-> slab_get s ai = Some a.
Proof.
  unfold slab_iter, slab_get. rewrite slab_iter_from_spec, N.sub_0_r. split.
  - intros [_ X]. now rewrite X.
  - intros X. split; [lia|]. destruct (nget (sl_entries s) ai) as [[a0|]|]; congruence.
Qed.
Definition arh_step (hk : key) : world -> N * arch -> world :=
  fun w' '(ai, _) =>
    match slab_get (w_archs w') ai, sm_get hk (w_hs w') with
    | Some a, Some h =>
        let '(a', h') := register_handler ai a h in
        set_hs (set_archs w' (slab_set (w_archs w') ai a')) (upd_by_key (w_hs w') hk (fun _ => h'))
    | _, _ => w'
    end.
Lemma archs_register_handler_unfold w hk : archs_register_handler w hk = fold_left (arh_step hk) (slab_iter (w_archs w)) w.
Proof. reflexivity. Qed.

Lemma hfix_archs_register_handler w hk : hfix (archs_register_handler w hk) = hfix w.
Proof.
  rewrite archs_register_handler_cases. destruct (sm_get hk (w_hs w)) as [h|] eqn:E; [|reflexivity]. unfold reg_all_w. rewrite regs_w_eta.
  unfold hfix. cbn [w_hs w_horder w_hctr w_glists set_hs set_archs]. do 3 f_equal.
  exact (sview_upd_key_at hskel _ hk (fun _ => reg_all_h w h) h E (regs_h_view hskel w _ hskel_refresh h)).
Qed.

Section HFix.
Variable beh : hinfo -> logent -> N -> script.
Lemma hfix_flush q w : hfix (res_world (flush beh q w)) = hfix w.
Proof. apply (r_flush hfix); hfr. Qed.
Lemma hsk_send_global tag ev w : hsk (res_world (send_global beh RFUEL tag ev w)) = hsk w.
Proof. apply (gev_frame beh hsk); try reflexivity; intros; apply hsk_hfix; [apply hfix_flush|apply (r_ev_drop hfix); hfr]. Qed.
Lemma ereg_run_handlers hl w it tag loc sent : ereg (fst (fst (fst (fst (run_handlers beh hl w it tag loc sent))))) = ereg w.
Proof. apply (r_run_handlers ereg); reflexivity. Qed.
Lemma ereg_ev_drop w t tag ev : ereg (ev_drop w t tag ev) = ereg w.
Proof. apply (r_ev_drop ereg); reflexivity. Qed.
End HFix.

Lemma arh_fold hk (L : list (N * arch)) : NoDup (map fst L) -> forall w' h0, sm_get hk (w_hs w') = Some h0 ->
  let wf := fold_left (arh_step hk) L w' in
  hreg wf = hreg w' /\ (exists hf, sm_get hk (w_hs wf) = Some hf /\ hstat hf = hstat h0) /\
  (forall k0, k0 <> hk -> sm_get k0 (w_hs wf) = sm_get k0 (w_hs w')) /\
  (forall ai, ~ In ai (map fst L) -> arch_at wf ai = arch_at w' ai) /\
  (forall ai, In ai (map fst L) -> match arch_at w' ai with
                                   | None => arch_at wf ai = None
                                   | Some a => exists hc, hstat hc = hstat h0 /\ arch_at wf ai = Some (fst (register_handler ai a hc)) end).
Proof.
  intros Hnd w' h0 Hg. cbn zeta. unfold arh_step. rewrite (arh_fold_eq hk h0 L Hnd w' h0 Hg eq_refl). set (l := map fst L).
  pose proof (regs_h_static w' l h0 : hstat (regs_h w' l h0) = hstat h0) as Hst.
  assert (Hat : forall ai, arch_at (set_hs (regs_w h0 l w') (upd_by_key (w_hs w') hk (fun _ => regs_h w' l h0))) ai =
                           if existsb (N.eqb ai) l then option_map (reg_arch h0) (arch_at w' ai) else arch_at w' ai) by exact (regs_w_at h0 l Hnd w').
  assert (Hin : forall ai, In ai l <-> existsb (N.eqb ai) l = true).
  { intros ai. rewrite existsb_exists. split; [intros X; exists ai; split; [exact X|apply N.eqb_refl]|intros (x & X & E); apply N.eqb_eq in E; now subst]. }
  split; [|split; [|split; [|split]]].
  - rewrite (regs_w_eta h0 l w'). unfold hreg. cbn [w_hs w_horder w_hctr w_glists set_hs set_archs]. do 3 f_equal. exact (sview_upd_key_at hstat _ hk (fun _ => regs_h w' l h0) h0 Hg Hst).
  - exists (regs_h w' l h0). split; [exact (upd_key_get_self _ hk _ h0 Hg)|exact Hst].
  - intros k0 Hk. now apply upd_key_get_other.
  - intros ai Hn. rewrite Hat. destruct (existsb (N.eqb ai) l) eqn:E; [|reflexivity]. now apply Hin in E.
  - intros ai Hi. rewrite Hat, (proj1 (Hin ai) Hi). destruct (arch_at w' ai) as [a|]; [|reflexivity]. exists h0. split; [reflexivity|].
    cbn [option_map]. now rewrite register_handler_fst.
Qed.

Lemma NoDup_map_snoc {A B} (g : A -> B) l x : NoDup (map g l) -> ~ In (g x) (map g l) -> NoDup (map g (l ++ [x])).
Proof. intros H1 H2. rewrite map_app. cbn [map]. now apply NoDup_app_snoc. Qed.

(* LInv, list by list: every listener list, of an archetype or global, holds exactly the live handlers that satisfy the
   list's own test; a handler that enters or leaves changes every list in one of two ways *)
Definition glistens (h : hinfo) (idx : N) : bool := match h_recv h with RvGlobal ek => fst ek =? idx | RvTargeted _ => false end.
Definition hmatch (hs : smap hinfo) (p : hinfo -> bool) (x : key) : Prop := exists h, sm_get x hs = Some h /\ p h = true.
Definition lholds (l : list key) (P : key -> Prop) : Prop := NoDup l /\ forall x, In x l <-> P x.
Definition holds (l : hlist key) (P : key -> Prop) : Prop := lholds (hl_entries l) P.

Lemma gmatch_glistens w idx x : (exists h ek, hlive w x h /\ h_recv h = RvGlobal ek /\ fst ek = idx) <-> hmatch (w_hs w) (fun h => glistens h idx) x.
Proof.
  unfold hmatch, glistens, hlive. split.
  - intros (h & ek & A & B & C). exists h. split; [exact A|]. now rewrite B, C, N.eqb_refl.
  - intros (h & A & B). destruct (h_recv h) as [ek|ek] eqn:Hr; [|discriminate]. apply N.eqb_eq in B. eauto.
Qed.
Lemma holds_iff l (P Q : key -> Prop) : (forall x, P x <-> Q x) -> holds l P <-> holds l Q.
Proof. intros H. unfold holds, lholds. split; intros [A B]; (split; [exact A|]); intros x; [rewrite <- H|rewrite H]; apply B. Qed.
Lemma LInv_lists w : LInv w <->
  (forall ai a idx, arch_at w ai = Some a -> holds (la_at a idx) (hmatch (w_hs w) (fun h => listens h (arch_has a) idx))) /\
  (forall idx, holds (gl_at (w_glists w) idx) (hmatch (w_hs w) (fun h => glistens h idx))).
Proof.
  unfold LInv. split; intros [A B]; (split; [intros ai a idx Ha; specialize (A ai a idx Ha)|intros idx; specialize (B idx)]).
  - rewrite listeners_la in A. refine (proj1 (holds_iff _ _ _ _) A). exact (lmatch_listens (w_hs w) (arch_has a) idx).
  - rewrite glist_gl in B. refine (proj1 (holds_iff _ _ _ _) B). intros x. apply gmatch_glistens.
  - rewrite listeners_la. refine (proj2 (holds_iff _ _ _ _) A). exact (lmatch_listens (w_hs w) (arch_has a) idx).
  - rewrite glist_gl. refine (proj2 (holds_iff _ _ _ _) B). intros x. apply gmatch_glistens.
Qed.

(* a table of handler keys (a listener list, a refresh set) when handler [k] enters: it is inserted where it passes the test *)
Lemma lholds_entry hs hs' k hf hnew (p : hinfo -> bool) (l l' : list key) :
  sm_get k hs = None -> sm_get k hs' = Some hf -> (forall x, x <> k -> sm_get x hs' = sm_get x hs) -> p hf = p hnew ->
  lholds l (hmatch hs p) ->
  (if p hnew then (NoDup l -> ~ In k l -> NoDup l') /\ (forall x, In x l' <-> x = k \/ In x l) else l' = l) ->
  lholds l' (hmatch hs' p).
Proof.
  intros Hfr Hk Hoth Hp [Hnd Hm] Hl'.
  assert (Hn : ~ In k l) by (intros X; apply Hm in X as (h & X & _); congruence).
  assert (Hm' : forall x, hmatch hs' p x <-> In x l \/ (x = k /\ p hnew = true)).
  { intros x. rewrite Hm. unfold hmatch. destruct (key_eq_dec x k) as [->|Hne].
    - rewrite Hk, Hfr. split; [intros (h & X & Y); inversion X; subst h; right; split; [reflexivity|congruence]|].
      intros [(h & X & _)|[_ Y]]; [discriminate|exists hf; split; [reflexivity|congruence]].
    - rewrite (Hoth x Hne). split; [now left|intros [X|[X _]]; [exact X|contradiction]]. }
  destruct (p hnew); [destruct Hl' as [A B]|subst l']; (split; [auto|]); intros x; rewrite Hm', ?B; intuition discriminate.
Qed.
Lemma holds_entry hs hs' k hf hnew (p : hinfo -> bool) l pr :
  sm_get k hs = None -> sm_get k hs' = Some hf -> (forall x, x <> k -> sm_get x hs' = sm_get x hs) -> p hf = p hnew ->
  holds l (hmatch hs p) -> holds (if p hnew then hl_insert l k pr else l) (hmatch hs' p).
Proof.
  intros Hfr Hk Hoth Hp H. apply (lholds_entry hs hs' k hf hnew p (hl_entries l) _ Hfr Hk Hoth Hp H).
  destruct (p hnew); [split; [apply hl_insert_nodup|intros x; apply hl_insert_in]|reflexivity].
Qed.

Lemma reg_arch_la h a idx : la_at (reg_arch h a) idx = if listens h (arch_has a) idx then hl_insert (la_at a idx) (h_key h) (h_prio h) else la_at a idx.
Proof. rewrite <- (register_handler_fst 0). apply reg_la. Qed.
Lemma gl_at_entry gl rv k pr idx :
  gl_at (match rv with
         | RvGlobal ek =>
             let gl0 := nrepeat_to gl (N.to_nat (fst ek) + 1) hl_new in
             match nget gl0 (fst ek) with
             | Some l => nset gl0 (fst ek) (hl_insert l k pr)
             | None => gl0 end
         | RvTargeted _ => gl end) idx =
  if match rv with RvGlobal ek => fst ek =? idx | RvTargeted _ => false end then hl_insert (gl_at gl idx) k pr else gl_at gl idx.
Proof. destruct rv as [ek|ek]; [|reflexivity]. rewrite gl_at_insert, (N.eqb_sym idx). destruct (N.eqb_spec (fst ek) idx) as [->|_]; reflexivity. Qed.

Lemma add_handler_entry_HL w1 (f : key -> hinfo) k hs rv pr filt hby :
  HL w1 -> insert_with f (w_hs w1) = Some (k, hs) ->
  (forall k0, h_key (f k0) = k0 /\ h_order (f k0) = w_hctr w1 /\ h_recv (f k0) = rv /\ h_prio (f k0) = pr /\ h_filter (f k0) = filt) ->
  let gl := match rv with
            | RvGlobal ek =>
                let gl0 := nrepeat_to (w_glists w1) (N.to_nat (fst ek) + 1) hl_new in
                match nget gl0 (fst ek) with
                | Some l => nset gl0 (fst ek) (hl_insert l k pr)
                | None => gl0 end
            | RvTargeted _ => w_glists w1 end in
  HL (archs_register_handler (set_hreg w1 hs gl hby (w_hctr w1 + 1) (w_horder w1 ++ [(w_hctr w1, k)])) k).
Proof.
  intros ((S & H1 & H2 & H3 & H4) & HL1) Ei Hf. cbn zeta. rewrite (entry_eq w1 f k hs _ hby _ _ S Ei).
  set (hnew := f k). set (hf := reg_all_h w1 hnew). destruct (Hf k) as (Fk & Fo & Fr & Fp & Ff). fold hnew in Fk, Fo, Fr, Fp, Ff.
  pose proof (regs_h_static w1 _ hnew : hstat hf = hstat hnew) as B2. destruct (stat_eq _ _ B2) as (Gk & Go & Gr & _).
  destruct (insert_upd_spec f (w_hs w1) k hs hf S Ei) as (Hfr & S3 & B1 & C). clearbody hnew hf.
  assert (Hlt : forall o hk, In (o, hk) (w_horder w1) -> o < w_hctr w1 /\ hk <> k).
  { intros o hk Hin. destruct (H2 o hk Hin) as (h & Hl & Eo). destruct (H1 hk h Hl) as (_ & _ & X). split; [congruence|]. intros ->. unfold hlive in Hl. congruence. }
  split.
  - unfold HInv, hlive. cbn [w_hs w_horder w_hctr set_hreg]. split; [exact S3|]. split; [|split; [|split]].
    + intros hk h Hl. destruct (key_eq_dec hk k) as [->|Hne].
      * rewrite B1 in Hl. injection Hl as <-. rewrite Gk, Go, Fk, Fo. split; [reflexivity|]. split; [apply in_or_app; right; now left|lia].
      * rewrite C in Hl by exact Hne. destruct (H1 hk h Hl) as (A & B & C'). split; [exact A|]. split; [apply in_or_app; now left|lia].
    + intros o hk Hin. apply in_app_or in Hin as [Hin|[Hin|[]]].
      * destruct (H2 o hk Hin) as (h & Hl & Eo). exists h. split; [|exact Eo]. rewrite C; [exact Hl|exact (proj2 (Hlt o hk Hin))].
      * injection Hin as <- <-. exists hf. split; [exact B1|congruence].
    + apply NoDup_map_snoc; [exact H3|]. cbn [snd]. intros X. apply in_map_iff in X as ([o hk] & E & X). cbn [snd] in E. subst hk. exact (proj2 (Hlt o k X) eq_refl).
    + apply NoDup_map_snoc; [exact H4|]. cbn [fst]. intros X. apply in_map_iff in X as ([o hk] & E & X). cbn [fst] in E. subst o. pose proof (proj1 (Hlt _ hk X)). lia.
  - apply LInv_lists. apply LInv_lists in HL1 as [L1 L2]. cbn [w_hs w_glists set_hreg]. split.
    + intros ai a3 idx Ha3. change (arch_at (reg_all_w hnew w1) ai = Some a3) in Ha3. rewrite reg_all_at in Ha3.
      destruct (arch_at w1 ai) as [a|] eqn:Ha; [|discriminate]. injection Ha3 as <-. rewrite reg_arch_la, Fk. change (arch_has (reg_arch hnew a)) with (arch_has a).
      apply (holds_entry (w_hs w1) _ k hf hnew (fun h => listens h (arch_has a) idx) _ _ Hfr B1 C); [now apply listens_stat|exact (L1 ai a idx Ha)].
    + intros idx. rewrite gl_at_entry, <- Fr.
      apply (holds_entry (w_hs w1) _ k hf hnew (fun h => glistens h idx) _ _ Hfr B1 C); [unfold glistens; now rewrite Gr|exact (L2 idx)].
Qed.

Lemma handler_entry_HL sh c w1 k w3 : handler_entry sh c w1 = inr (k, w3) -> HL w1 -> HL w3.
Proof.
  intros H HH. destruct (handler_entry_inv sh c w1 k w3 H) as (rv & acc & hs & _ & _ & Ei & ->).
  eapply (add_handler_entry_HL w1 _ k hs rv (sh_prio sh) (cf_filter c)); [exact HH|exact Ei|]. intros k1. repeat split.
Qed.

Lemma key_eqb_spec (a b : key) : key_eqb a b = true <-> a = b.
Proof.
  unfold key_eqb. rewrite andb_true_iff, !N.eqb_eq. destruct a, b; cbn. split; [intros [-> ->]; reflexivity|intros H; inversion H; auto].
Qed.

Lemma hl_remove_spec (l : hlist key) k : NoDup (hl_entries l) ->
  NoDup (hl_entries (hl_remove key_eqb l k)) /\ forall x, In x (hl_entries (hl_remove key_eqb l k)) <-> In x (hl_entries l) /\ x <> k.
Proof.
  intros Hnd. pose proof (HListProofs.remove_not_in key_eqb key_eqb_spec l k Hnd) as Hn.
  destruct (HListProofs.remove_keeps_others key_eqb key_eqb_spec l k) as (X & Y & [[E1 E2]|[E1 _]]).
  - rewrite E2 in *. rewrite E1 in Hnd. split; [eapply NoDup_remove_1; eauto|]. intros x. rewrite E1, !in_app_iff. cbn [In]. split.
    + intros H. split; [tauto|]. intros ->. apply Hn. now apply in_or_app.
    + intros [[H|[H|H]] Hne]; [now left|congruence|now right].
  - rewrite E1 in *. split; [exact Hnd|]. intros x. split; [intros H; split; [exact H|intros ->; contradiction]|tauto].
Qed.

Lemma NoDup_map_filter {A B} (g : A -> B) (p : A -> bool) l : NoDup (map g l) -> NoDup (map g (filter p l)).
Proof.
  induction l as [|x l IH]; cbn [map filter]; intros H; [constructor|]. inversion H; subst. destruct (p x); cbn [map]; [|auto].
  constructor; [|auto]. intros X. apply in_map_iff in X as (y & E & Hy). apply filter_In in Hy as [Hy _]. apply H2. rewrite <- E. now apply in_map.
Qed.
Lemma NoDup_fst_fun {A B} (l : list (A * B)) o a b : NoDup (map fst l) -> In (o, a) l -> In (o, b) l -> a = b.
Proof.
  induction l as [|[o' c] l IH]; cbn [map fst]; intros H Ha Hb; [destruct Ha|]. inversion H; subst.
  destruct Ha as [Ha|Ha], Hb as [Hb|Hb].
  - congruence.
  - inversion Ha; subst. exfalso. apply H2. apply in_map_iff. exists (o, b). auto.
  - inversion Hb; subst. exfalso. apply H2. apply in_map_iff. exists (o, a). auto.
  - eauto.
Qed.

Definition rm_arch (h : hinfo) (a : arch) : arch :=
  let ls := match h_recv h with
            | RvTargeted ek => match alookup (fst ek) (a_listeners a) with
                               | Some l => ainsert (fst ek) (hl_remove key_eqb l (h_key h)) (a_listeners a)
                               | None => a_listeners a end
            | RvGlobal _ => a_listeners a end in
  set_tables a (kset_remove (h_key h) (a_refresh a)) ls.
Lemma archs_remove_handler_at w h j : arch_at (archs_remove_handler w h) j = option_map (rm_arch h) (arch_at w j).
Proof.
  unfold arch_at, archs_remove_handler, slab_get. cbn [w_archs set_archs sl_entries]. rewrite nget_map.
  destruct (nget (sl_entries (w_archs w)) j) as [[a|n]|]; reflexivity.
Qed.

Lemma hl_remove_or_same (l l' : hlist key) k : NoDup (hl_entries l) ->
  l' = hl_remove key_eqb l k \/ (l' = l /\ ~ In k (hl_entries l)) ->
  NoDup (hl_entries l') /\ forall x, In x (hl_entries l') <-> In x (hl_entries l) /\ x <> k.
Proof.
  intros Hnd [->|[-> Hn]]; [now apply hl_remove_spec|]. split; [exact Hnd|]. intros x. split; [|tauto]. intros X. split; [exact X|]. intros ->. contradiction.
Qed.

Lemma lholds_exit hs hs' k (p : hinfo -> bool) (l l' : list key) :
  sm_get k hs' = None -> (forall x, x <> k -> sm_get x hs' = sm_get x hs) ->
  lholds l (hmatch hs p) -> NoDup l' -> (forall x, In x l' <-> In x l /\ x <> k) -> lholds l' (hmatch hs' p).
Proof.
  intros Hgone Hoth [Hnd Hm] Hnd' Hin'. split; [exact Hnd'|]. intros x. rewrite Hin', Hm. unfold hmatch. destruct (key_eq_dec x k) as [->|Hne].
  - rewrite Hgone. split; [intros [_ X]; now contradiction X|intros (h0 & X & _); discriminate].
  - rewrite (Hoth x Hne). tauto.
Qed.
Lemma holds_exit hs hs' k h (p : hinfo -> bool) l (b : bool) :
  sm_get k hs = Some h -> sm_get k hs' = None -> (forall x, x <> k -> sm_get x hs' = sm_get x hs) -> (b = false -> p h = false) ->
  holds l (hmatch hs p) -> holds (if b then hl_remove key_eqb l k else l) (hmatch hs' p).
Proof.
  intros Hk Hgone Hoth Hb H. destruct (hl_remove_or_same l (if b then hl_remove key_eqb l k else l) k (proj1 H)) as [Hnd' Hin'].
  { destruct b; [now left|right; split; [reflexivity|]]. intros X. apply (proj2 H) in X as (h0 & X & Y). rewrite Hk in X. injection X as <-. rewrite Hb in Y; [discriminate|reflexivity]. }
  exact (lholds_exit hs hs' k p _ _ Hgone Hoth H Hnd' Hin').
Qed.

Definition tlistens (h : hinfo) (idx : N) : bool := match h_recv h with RvTargeted ek => fst ek =? idx | RvGlobal _ => false end.
Lemma rm_la h a idx : la_at (rm_arch h a) idx = if tlistens h idx then hl_remove key_eqb (la_at a idx) (h_key h) else la_at a idx.
Proof.
  unfold rm_arch, la_at, tlistens. cbn [a_listeners set_tables]. destruct (h_recv h) as [ek|ek]; [reflexivity|].
  destruct (N.eqb_spec (fst ek) idx) as [<-|Hne].
  - destruct (alookup (fst ek) (a_listeners a)) as [l|] eqn:El; [now rewrite alookup_ainsert_eq|now rewrite El].
  - destruct (alookup (fst ek) (a_listeners a)); [|reflexivity]. now rewrite alookup_ainsert_neq by (intros X; now apply Hne).
Qed.
Lemma gl_at_remove gl h k idx :
  gl_at (match h_recv h with
         | RvGlobal ek => match nget gl (fst ek) with Some l => nset gl (fst ek) (hl_remove key_eqb l k) | None => gl end
         | RvTargeted _ => gl end) idx = if glistens h idx then hl_remove key_eqb (gl_at gl idx) k else gl_at gl idx.
Proof.
  unfold glistens. destruct (h_recv h) as [ek|ek]; [|reflexivity]. unfold gl_at. destruct (N.eqb_spec (fst ek) idx) as [<-|Hne].
  - destruct (nget gl (fst ek)) as [l|] eqn:El; [now rewrite nget_nset_eq by (eapply nget_some_lt; eauto)|now rewrite El].
  - destruct (nget gl (fst ek)); [|reflexivity]. now rewrite nget_nset_neq by auto.
Qed.

Lemma remove_handler_entry_HL w k h hs' hby :
  HL w -> sm_remove k (w_hs w) = Some (h, hs') ->
  let gl := match h_recv h with
            | RvGlobal ek => match nget (w_glists w) (fst ek) with
                             | Some l => nset (w_glists w) (fst ek) (hl_remove key_eqb l k)
                             | None => w_glists w end
            | RvTargeted _ => w_glists w end in
  HL (archs_remove_handler (set_hreg w hs' gl hby (w_hctr w) (filter (fun p => negb (fst p =? h_order h)) (w_horder w))) h).
Proof.
  intros ((S & H1 & H2 & H3 & H4) & HL1) Er. cbn zeta.
  pose proof (remove_get_self k (w_hs w) h hs' Er) as Hk. destruct (H1 k h Hk) as (Hkk & Hkin & Hklt).
  assert (Hgone : sm_get k hs' = None) by (eapply remove_get_gone; eauto).
  assert (Hoth : forall x, x <> k -> sm_get x hs' = sm_get x (w_hs w)) by (intros; eapply remove_get_other; eauto).
  split.
  - unfold HInv, hlive. cbn [w_hs w_horder w_hctr archs_remove_handler set_archs set_hreg].
    split; [eapply remove_inv; eauto|]. split; [|split; [|split; [now apply NoDup_map_filter|now apply NoDup_map_filter]]].
    + intros x h0 X. assert (Hne : x <> k) by (intros ->; congruence). rewrite Hoth in X by exact Hne. destruct (H1 x h0 X) as (A & B & C). split; [exact A|]. split; [|exact C].
      apply filter_In. split; [exact B|]. cbn [fst]. apply negb_true_iff, N.eqb_neq. intros Eo. apply Hne. rewrite Eo in B. exact (NoDup_fst_fun _ _ _ _ H4 B Hkin).
    + intros o x Hin. apply filter_In in Hin as [Hin Ho]. cbn [fst] in Ho. apply negb_true_iff, N.eqb_neq in Ho.
      destruct (H2 o x Hin) as (h0 & X & Eo). exists h0. split; [|exact Eo]. rewrite Hoth; [exact X|]. intros ->. unfold hlive in X. congruence.
  - apply LInv_lists. apply LInv_lists in HL1 as [L1 L2]. split.
    + intros ai a3 idx Ha3. rewrite archs_remove_handler_at in Ha3. change (option_map (rm_arch h) (arch_at w ai) = Some a3) in Ha3.
      destruct (arch_at w ai) as [a|] eqn:Ha; [|discriminate]. injection Ha3 as <-. rewrite rm_la, Hkk. change (arch_has (rm_arch h a)) with (arch_has a).
      apply (holds_exit (w_hs w) hs' k h (fun h => listens h (arch_has a) idx) _ _ Hk Hgone Hoth); [|exact (L1 ai a idx Ha)].
      unfold listens, tlistens. destruct (h_recv h); [reflexivity|]. now intros ->.
    + intros idx. change (w_glists (archs_remove_handler _ h)) with (match h_recv h with
         | RvGlobal ek => match nget (w_glists w) (fst ek) with Some l => nset (w_glists w) (fst ek) (hl_remove key_eqb l k) | None => w_glists w end
         | RvTargeted _ => w_glists w end). rewrite gl_at_remove.
      exact (holds_exit (w_hs w) hs' k h (fun h => glistens h idx) _ _ Hk Hgone Hoth (fun E => E) (L2 idx)).
Qed.

(* the removal of a component's archetypes leaves the handler registry alone, and what it leaves of the archetypes
   keeps its listener tables *)
Lemma arc_sub cidx ctag w l : hreg (archs_remove_component w cidx ctag l) = hreg w /\
  forall j a', arch_at (archs_remove_component w cidx ctag l) j = Some a' -> exists a, arch_at w j = Some a /\ lview a' = lview a.
Proof.
  split; [apply hreg_hfix, (arc_pres cidx ctag hfix); [|reflexivity]; intros w0 ai a D; exact (hfix_notify_remove_with _ ai a)|].
  intros j a'. rewrite archs_remove_component_unfold, strip_arch_at, rc_fold_arch_at. destruct (existsb _ l); [discriminate|].
  destruct (arch_at w j) as [a|]; [|discriminate]. intros H. inversion H. now exists a.
Qed.
Lemma archs_remove_component_HL cidx ctag w l : HL w -> HL (archs_remove_component w cidx ctag l).
Proof. destruct (arc_sub cidx ctag w l). now apply HL_sub. Qed.
Lemma rc_step_hreg cidx ctag w ai : hreg (rc_step cidx ctag w ai) = hreg w.
Proof. apply rc_step_cases; [reflexivity|]. intros a D _. exact (hreg_hfix w _ (hfix_notify_remove_with (set_archs w (slab_remove (w_archs w) ai)) ai a)). Qed.
Lemma rc_step_arch_sub cidx ctag w ai j a' : arch_at (rc_step cidx ctag w ai) j = Some a' -> arch_at w j = Some a'.
Proof. rewrite rc_step_arch_at. now destruct (j =? ai). Qed.
Lemma rc_step_HL cidx ctag w ai : HL w -> HL (rc_step cidx ctag w ai).
Proof. apply HL_sub; [apply rc_step_hreg|]. intros j a' H. exists a'. split; [eapply rc_step_arch_sub; eauto|reflexivity]. Qed.
Lemma strip_HL cidx w : HL w -> HL (strip cidx w).
Proof.
  apply HL_sub; [reflexivity|]. intros j a' H. rewrite strip_arch_at in H.
  destruct (arch_at w j) as [a|]; [|discriminate]. inversion H. now exists a.
Qed.

Lemma GInv_registries w w' : registries w' = registries w -> GInv w -> GInv w'.
Proof. intros E. unfold GInv. now rewrite (f_equal (fun t => fst (fst (fst (fst t)))) E : w_gev w' = w_gev w). Qed.

Lemma gev_entry_HL w tag k m : insert_with (fun _ => mkE tag (gkind tag)) (w_gev w) = Some (k, m) ->
  HL w /\ GInv w -> HL (gev_entry_world w tag k m) /\ GInv (gev_entry_world w tag k m).
Proof.
  intros Ei [HH HG]. split.
  - apply (HL_conv_gl w); try reflexivity; [|exact HH]. intros idx. apply (glist_nrepeat w (w_glists w) _ eq_refl).
  - exact (insert_inv _ _ _ _ HG Ei).
Qed.

Lemma comp_exit_HL w k ci m : HL w /\ GInv w -> HL (comp_exit_world w k ci m) /\ GInv (comp_exit_world w k ci m).
Proof.
  intros [HH HG]. split.
  - apply (archs_remove_component_HL (fst k) (c_tag ci) (set_comps w m (aremove (c_tag ci) (w_cby w)))). exact HH.
  - unfold GInv, comp_exit_world, refresh_cursor. cbn [w_gev set_res]. now rewrite (arc_pres _ _ w_gev).
Qed.

Lemma AI_world0 fuel p : AI (world0 fuel p).
Proof.
  split; [split; [apply FInv_world0|]|apply empty_inv].
  unfold HL, HInv, LInv, hlive, glist_of, world0, arch_at. cbn [w_hs w_horder w_hctr w_glists w_archs]. split.
  - split; [apply empty_inv|]. split; [intros hk h H; discriminate|]. split; [intros o hk []|]. split; constructor.
  - split.
    + intros ai a idx Ha. unfold slab_get in Ha. cbn [sl_entries nget] in Ha. destruct (ai =? 0); [|discriminate]. inversion Ha; subst.
      unfold listeners_of. cbn. split; [constructor|]. intros hk. split; [intros []|intros (h & ek & H & _); discriminate].
    + intros idx. cbn [nget]. split; [constructor|]. intros hk. split; [intros []|intros (h & ek & H & _); discriminate].
Qed.

Section AILayer.
Variable beh : hinfo -> logent -> N -> script.

Lemma GInv_stable : stable (fun _ => True) GInv.
Proof. intros w w' S _. exact (GInv_registries _ _ (step_registries _ _ S)). Qed.

Lemma AInv_kept : kept AInv.
Proof. exact (kept_and FInv _ HL FInv_kept (fun _ _ => I) stable_True HL_stable). Qed.
Lemma AI_kept : kept AI.
Proof. exact (kept_and AInv _ GInv AInv_kept (fun _ _ => I) stable_True GInv_stable). Qed.

Theorem flush_AInv_loop n q w tr s' oc :
  Loop.flush wst qitem (run_w beh) unwind_w n q (w, None) [] = Some (tr, s', oc) -> AInv w -> AInv (fst s').
Proof. exact (kept_flush_loop beh AInv AInv_kept n q w tr s' oc). Qed.
Lemma flush_AInv q w : AInv w -> AInv (res_world (flush beh q w)).
Proof. exact (kept_flush beh AInv AInv_kept q w). Qed.
Lemma flush_AI q w : AI w -> AI (res_world (flush beh q w)).
Proof. exact (kept_flush beh AI AI_kept q w). Qed.

Definition HL_over : Layer beh FInv.
Proof.
  apply (plain beh (fun w => HL w /\ GInv w));
    [|intros q w HF [HH HG] _; destruct (kept_flush beh AI AI_kept q w (conj (conj HF HH) HG)) as [[_ A] B]; now split]. intros b w w' Hp _ H _.
  destruct Hp as [w w' Hq|w tag k m _ Ei|w tag k m _ _|w0 tag kind k m _ _ _ _|sh w c w1 k w3 _ _ Eh|w1 k h w2 Eh|k w w1 w2 info m _ _ _ _ Er|k w w1 w2 info m _ _ _ _ _].
  - destruct H as [HH HG]. split; [exact (HL_stable _ _ (st_same (ss_quiet _ _ Hq)) I HH)|]. unfold GInv in *. now rewrite (proj1 (proj2 (proj2 (proj2 (quiet_fields _ _ Hq))))).
  - now apply gev_entry_HL.
  - apply (HLG_fields w); [..|exact H]; reflexivity.
  - destruct kind; apply (HLG_fields w0); try reflexivity; exact H.
  - destruct H as [HH HG]. split; [exact (handler_entry_HL sh c w1 k w3 Eh HH)|].
    unfold GInv. now rewrite (proj2 (handler_entry_structure sh c w1 k w3 Eh)).
  - destruct H as [HH HG]. destruct (handlers_remove_inv w1 k h w2 Eh) as (hs & Er & ->). split; [exact (remove_handler_entry_HL w1 k h hs _ HH Er)|exact HG].
  - destruct H as [HH HG]. split; [apply (HL_conv_gl w2); try reflexivity; exact HH|exact (SlotMap.remove_inv _ _ _ _ HG Er)].
  - unfold tev_exit_world. cbv zeta. destruct (e_kind info); apply (HLG_fields w2); try reflexivity; exact H.
Defined.

Definition AI_layer : Layer beh (fun _ => True) := stack (FInv_layer beh) HL_over (fun w _ HJ => proj1 (FInv_layer_J beh w) HJ).

Lemma AI_layer_J w : lJ AI_layer w <-> AI w.
Proof. change (lJ (FInv_layer beh) w /\ HL w /\ GInv w <-> (FInv w /\ HL w) /\ GInv w). pose proof (FInv_layer_J beh w). tauto. Qed.
Lemma tri_AI {A} w (r : res A) Q : tri beh AI_layer w r Q -> AI (res_world r).
Proof. intros H. exact (proj1 (AI_layer_J _) (proj1 (tri_J beh AI_layer r w Q H))). Qed.
Lemma keeps_AI {A} (r : res A) : keeps beh AI_layer r -> AI (res_world r).
Proof. intros H. exact (proj1 (AI_layer_J _) (proj1 H)). Qed.

Lemma AI_comp_exit : comp_exit_ok AI_layer.
Proof. apply stack_comp_exit; [apply FInv_comp_exit|]. repeat intro. now apply comp_exit_HL. Qed.

Lemma gev_AI fuel : forall tag w, AI w ->
  AI (res_world (add_global_event beh fuel tag w)) /\ forall ev, AI (res_world (send_global beh fuel tag ev w)).
Proof.
  intros tag w H. destruct (gev_tri beh AI_layer fuel tag w (proj2 (AI_layer_J w) H)) as [A B].
  split; [exact (tri_AI _ _ _ A)|intros ev; exact (tri_AI _ _ _ (B ev))].
Qed.
Lemma send_global_AI tag ev w : AI w -> AI (res_world (send_global beh RFUEL tag ev w)).
Proof. intros H. exact (tri_AI _ _ _ (send_global_tri beh AI_layer tag ev w (proj2 (AI_layer_J w) H))). Qed.
Lemma add_global_event_AI tag w : AI w -> AI (res_world (add_global_event beh RFUEL tag w)).
Proof. intros H. exact (tri_AI _ _ _ (add_global_event_tri beh AI_layer tag w (proj2 (AI_layer_J w) H))). Qed.
Lemma add_component_AI tag w : AI w -> AI (res_world (add_component beh tag w)).
Proof. intros H. exact (tri_AI _ _ _ (add_component_tri beh AI_layer tag w (proj2 (AI_layer_J w) H))). Qed.
Lemma tev_stage1_AI tag w : AI w -> AI (res_world (tev_stage1 beh tag w)).
Proof. intros H. exact (tri_AI _ _ _ (tev_stage1_tri beh AI_layer tag w (proj2 (AI_layer_J w) H))). Qed.
Lemma add_targeted_event_AI tag w : AI w -> AI (res_world (add_targeted_event beh tag w)).
Proof. intros H. exact (tri_AI _ _ _ (add_targeted_event_tri beh AI_layer tag w (proj2 (AI_layer_J w) H))). Qed.
Lemma send_to_AI tag target ev w : AI w -> AI (res_world (send_to beh tag target ev w)).
Proof. intros H. exact (tri_AI _ _ _ (send_to_tri beh AI_layer tag target ev w (proj2 (AI_layer_J w) H))). Qed.
Theorem op_spawn_AI w : AI w -> AI (res_world (op_spawn beh w)).
Proof. intros H. exact (tri_AI _ _ _ (op_spawn_tri beh AI_layer w (proj2 (AI_layer_J w) H))). Qed.
Theorem op_insert_AI e ktag w : AI w -> AI (res_world (op_insert beh e ktag w)).
Proof. intros H. exact (tri_AI _ _ _ (op_insert_tri beh AI_layer e ktag w (proj2 (AI_layer_J w) H))). Qed.
Theorem op_remove_AI e ktag w : AI w -> AI (res_world (op_remove beh e ktag w)).
Proof. exact (send_to_AI _ e _ w). Qed.
Theorem op_despawn_AI e w : AI w -> AI (res_world (op_despawn beh e w)).
Proof. exact (send_to_AI _ e _ w). Qed.
Theorem op_send_AI gtag w : AI w -> AI (res_world (op_send beh gtag w)).
Proof. intros H. exact (tri_AI _ _ _ (op_send_tri beh AI_layer gtag w (proj2 (AI_layer_J w) H))). Qed.
Theorem op_send_to_AI e ttag w : AI w -> AI (res_world (op_send_to beh e ttag w)).
Proof. intros H. exact (tri_AI _ _ _ (op_send_to_tri beh AI_layer e ttag w (proj2 (AI_layer_J w) H))). Qed.
Lemma resolve_query_AI q : forall w, AI w -> AI (res_world (resolve_query beh q w)).
Proof. intros w H. exact (tri_AI _ _ _ (resolve_query_tri beh AI_layer q w (proj2 (AI_layer_J w) H))). Qed.
Lemma register_set_AI evs : forall w, AI w -> AI (res_world (register_set beh evs w)).
Proof. intros w H. exact (tri_AI _ _ _ (register_set_tri beh AI_layer evs w (proj2 (AI_layer_J w) H))). Qed.
Lemma init_param_AI p c w : AI w -> AI (res_world (init_param beh p c w)).
Proof. intros H. exact (tri_AI _ _ _ (init_param_tri beh AI_layer p c w (proj2 (AI_layer_J w) H))). Qed.
Lemma init_params_AI ps : forall c w, AI w -> AI (res_world (init_params beh ps c w)).
Proof. intros c w H. exact (tri_AI _ _ _ (init_params_tri beh AI_layer ps c w (proj2 (AI_layer_J w) H))). Qed.
Theorem add_handler_AI sh w : AI w -> AI (res_world (add_handler beh sh w)).
Proof. intros H. exact (tri_AI _ _ _ (add_handler_tri beh AI_layer sh w (proj2 (AI_layer_J w) H))). Qed.
Theorem remove_handler_AI k w : AI w -> AI (res_world (remove_handler beh k w)).
Proof. intros H. exact (keeps_AI _ (remove_handler_keeps beh AI_layer k w (proj2 (AI_layer_J w) H))). Qed.
Lemma remove_handlers_AI ks : forall w, AI w -> AI (res_world (remove_handlers beh ks w)).
Proof. intros w H. exact (keeps_AI _ (remove_handlers_keeps beh AI_layer ks w (proj2 (AI_layer_J w) H))). Qed.
Theorem remove_global_event_AI k w : AI w -> AI (res_world (remove_global_event beh k w)).
Proof. intros H. exact (keeps_AI _ (remove_global_event_keeps beh AI_layer k w (proj2 (AI_layer_J w) H))). Qed.
Theorem remove_targeted_event_AI k w : AI w -> AI (res_world (remove_targeted_event beh k w)).
Proof. intros H. exact (keeps_AI _ (remove_targeted_event_keeps beh AI_layer k w (proj2 (AI_layer_J w) H))). Qed.
Lemma remove_tevents_AI ks : forall w, AI w -> AI (res_world (remove_tevents beh ks w)).
Proof. intros w H. exact (keeps_AI _ (remove_tevents_keeps beh AI_layer ks w (proj2 (AI_layer_J w) H))). Qed.
Theorem remove_component_AI k w : AI w -> AI (res_world (remove_component beh k w)).
Proof. intros H. exact (keeps_AI _ (remove_component_keeps beh AI_layer k w AI_comp_exit (proj2 (AI_layer_J w) H))). Qed.

End AILayer.

Lemma AI_ev_drop w t tag ev : AI w -> AI (ev_drop w t tag ev).
Proof.
  intros H. apply (AI_layer_J script_beh).
  exact (place_J script_beh (AI_layer script_beh) _ _ _ (p_quiet _ _ (quiet_ev_drop w t tag ev)) (proj2 (AI_layer_J script_beh w) H)).
Qed.
Lemma run_top_all_AI beh w o : AI w -> AI (run_top_all beh w o).
Proof. intros H. exact (proj1 (AI_layer_J beh _) (run_top_all_keeps beh (AI_layer beh) (AI_comp_exit beh) w o (proj2 (AI_layer_J beh w) H))). Qed.

Theorem reachable_AI beh fuel p ops : AI (fold_left (run_top_all beh) ops (world0 fuel p)).
Proof.
  exact (proj1 (AI_layer_J beh _) (history_keeps beh (AI_layer beh) ops _ (AI_comp_exit beh) (proj2 (AI_layer_J beh _) (AI_world0 fuel p)))).
Qed.

(* C08 / C15, which handlers a delivery runs: the handler list deliver_one uses *)
Definition delivered_to (w : world) (it : qitem) : list key :=
  if qi_targeted it then
    match sm_get (qi_target it) (w_ents w) with
    | Some loc => match slab_get (w_archs w) (fst loc) with
                  | Some a => listeners_of a (qi_idx it)
                  | None => [] end
    | None => [] end
  else glist_of w (qi_idx it).

Theorem delivered_to_exact w it : HL w ->
  NoDup (delivered_to w it) /\
  forall hk, In hk (delivered_to w it) <->
    if qi_targeted it then
      exists loc a h ek, sm_get (qi_target it) (w_ents w) = Some loc /\ arch_at w (fst loc) = Some a /\
        hlive w hk h /\ h_recv h = RvTargeted ek /\ fst ek = qi_idx it /\ ca_matches (arch_has a) (h_filter h) = true
    else exists h ek, hlive w hk h /\ h_recv h = RvGlobal ek /\ fst ek = qi_idx it.
Proof.
  intros (_ & L1 & L2). unfold delivered_to. destruct (qi_targeted it).
  - destruct (sm_get (qi_target it) (w_ents w)) as [loc|]; [|split; [constructor|]; intros hk; split; [intros []|intros (loc & a & h & ek & X & _); discriminate]].
    destruct (slab_get (w_archs w) (fst loc)) as [a|] eqn:Ha; [|split; [constructor|]; intros hk; split; [intros []|intros (loc' & a & h & ek & X & Y & _); inversion X; subst; unfold arch_at in Y; congruence]].
    destruct (L1 (fst loc) a (qi_idx it) Ha) as [Hnd Hm]. split; [exact Hnd|]. intros hk. rewrite Hm. split.
    + intros (h & ek & A & B & C & D). exists loc, a, h, ek. split; [reflexivity|]. split; [exact Ha|]. split; [exact A|]. split; [exact B|]. split; [exact C|exact D].
    + intros (loc' & a' & h & ek & X & Y & A & B & C & D). inversion X; subst loc'. unfold arch_at in Y. rewrite Ha in Y. inversion Y; subst a'. exists h, ek. split; [exact A|]. split; [exact B|]. split; [exact C|exact D].
  - exact (L2 (qi_idx it)).
Qed.

(* C15: whatever a delivery runs is a live handler *)
Corollary delivered_handlers_are_live w it hk : HL w -> In hk (delivered_to w it) -> exists h, hlive w hk h.
Proof.
  intros H Hin. apply (proj2 (delivered_to_exact w it H)) in Hin. destruct (qi_targeted it).
  - destruct Hin as (_ & _ & h & _ & _ & _ & X & _). eauto.
  - destruct Hin as (h & _ & X & _). eauto.
Qed.

(* deliver_one runs exactly [delivered_to] (when the registry look-ups succeed) *)
Lemma deliver_one_uses_delivered_to beh it w :
  (if qi_targeted it then get_by_index (w_tev w) (qi_idx it) <> None /\ sm_get (qi_target it) (w_ents w) <> None /\
                          (forall loc, sm_get (qi_target it) (w_ents w) = Some loc -> slab_get (w_archs w) (fst loc) <> None)
   else get_by_index (w_gev w) (qi_idx it) <> None /\ nget (w_glists w) (qi_idx it) <> None) ->
  exists tag kind loc, deliver_one beh it w =
    (let '(w1, ev, sent, taken, fl) := run_handlers beh (delivered_to w it) w it tag loc [] in
       match fl with
       | Some f => (sent, (if taken then w1 else ev_drop w1 (qi_targeted it) tag ev), Some f)
       | None => if taken then (sent, w1, None) else
           match kind with
           | KNormal => (sent, ev_drop w1 (qi_targeted it) tag ev, None)
           | _ => let '(w3, f) := fail_of (builtin_effect kind ev loc w1) in (sent, w3, f)
           end
       end).
Proof.
  unfold deliver_one, delivered_to, glist_of, listeners_of. destruct (qi_targeted it).
  - intros (A & B & C). destruct (get_by_index (w_tev w) (qi_idx it)) as [[k info]|]; [|congruence].
    destruct (sm_get (qi_target it) (w_ents w)) as [loc|]; [|congruence]. specialize (C loc eq_refl).
    destruct (slab_get (w_archs w) (fst loc)) as [a|]; [|congruence]. exists (e_tag info), (e_kind info), loc. reflexivity.
  - intros (A & B). destruct (get_by_index (w_gev w) (qi_idx it)) as [[k info]|]; [|congruence].
    destruct (nget (w_glists w) (qi_idx it)) as [l|]; [|congruence]. exists (e_tag info), (e_kind info), (U32MAX, U32MAX). reflexivity.
Qed.

Global Opaque AI_layer.
