(* StorageSpec.v : what each storage operation of World.v returns, as a term.
   A storage operation changes four things and nothing else: the ledger (values destroyed), the rows and capacity
   of one or two archetypes, the entity map, and - through the two notifications - the fetcher caches.  Each
   operation gets one statement here, from its definition and without any invariant: the world it returns when it
   succeeds ([moved], [overwritten], [removed], [row_spawned]) and why, and the world it leaves behind, with the cause,
   when an unchecked step fails.  What is proved about these operations elsewhere reads the parts it cares about off
   these terms ([moved_eq], [overwritten_eq], [removed_eq], [row_spawned_eq] write them as record updates of the
   starting world). *)
From Coq Require Import List NArith Bool.
Import ListNotations.
Require Import EV.Base EV.Access EV.Query EV.SlotMap EV.Reserve EV.HList EV.Loop EV.World.
Open Scope N_scope.

Definition drop_all (l : list (N * cval)) (w : world) : world :=
  fold_left (fun (w' : world) '(c, v) => drop_cval w' (comp_tag w' c) v) l w.

Lemma drop_cval_eq w t v : drop_cval w t v = set_drops w (w_drops (drop_cval w t v)).
Proof. unfold drop_cval. destruct (ctag_has_drop t); [reflexivity|now destruct w]. Qed.
Lemma drop_all_eq l : forall w, drop_all l w = set_drops w (w_drops (drop_all l w)).
Proof.
  unfold drop_all. induction l as [|[c v] l IH]; intros w; cbn [fold_left]; [now destruct w|].
  rewrite IH. rewrite (drop_cval_eq w) at 1. reflexivity.
Qed.

Lemma notify_remove_eq w ai : notify_remove w ai = set_hs w (w_hs (notify_remove w ai)).
Proof. unfold notify_remove, notify_remove_with. destruct (slab_get (w_archs w) ai); [reflexivity|now destruct w]. Qed.
Lemma notify_refresh_eq w ai : notify_refresh w ai = set_hs w (w_hs (notify_refresh w ai)).
Proof. unfold notify_refresh. destruct (slab_get (w_archs w) ai); [reflexivity|now destruct w]. Qed.
Lemma set_hs_eta w : set_hs w (w_hs w) = w. Proof. now destruct w. Qed.

(* Vec::push after reserve(1), and swap_remove, on the rows of one archetype *)
Definition pushed (a : arch) (r : key * list cval) : arch :=
  let a1 := fst (reserve_one a) in set_rows a1 (a_rows a1 ++ [r]).
Definition taken (a : arch) (row : N) : arch := set_rows a (swap_remove (a_rows a) row).

Lemma pushed_eq a r : pushed a r = set_rows (set_cap a (a_cap (pushed a r)) (a_epoch (pushed a r))) (a_rows a ++ [r]).
Proof. unfold pushed, reserve_one. destruct (nlen (a_rows a) =? a_cap a); cbn [fst]; [reflexivity|now destruct a]. Qed.
Lemma pushed_rows a r : a_rows (pushed a r) = a_rows a ++ [r].
Proof. now rewrite pushed_eq. Qed.
Lemma pushed_view {T} (g : arch -> T) : (forall a r, g (set_rows a r) = g a) -> (forall a c e, g (set_cap a c e) = g a) ->
  forall a r, g (pushed a r) = g a.
Proof. intros Hr Hc a r. now rewrite pushed_eq, Hr, Hc. Qed.
Lemma pushed_epoch a r : snd (reserve_one a) = false -> a_epoch (pushed a r) = a_epoch a.
Proof. unfold pushed, reserve_one. now destruct (nlen (a_rows a) =? a_cap a). Qed.

(* the entity map after the entity displaced by a swap_remove (the one now in row [row] of [rows], if any)
   has been told its new row (archetype.rs:488, 532) *)
Definition fixup (m : smap eloc) (rows : list (key * list cval)) (row : N) : smap eloc :=
  match nget rows row with
  | Some (de, _) => match sm_get de m with Some l => upd_by_index m (fst de) (fun _ => (fst l, row)) | None => m end
  | None => m
  end.
Definition relocate (w : world) (rows : list (key * list cval)) (row fub : N) : res unit :=
  match nget rows row with
  | Some (de, _) => match sm_get de (w_ents w) with Some l => set_loc w de (fst l, row) | None => RFail (FUB fub) w end
  | None => ROk tt w
  end.
Lemma set_ents_eta w : set_ents w (w_ents w) = w. Proof. now destruct w. Qed.
Definition displaced_dead (m : smap eloc) (rows : list (key * list cval)) (row : N) : Prop :=
  exists de dv, nget rows row = Some (de, dv) /\ sm_get de m = None.
Lemma relocate_spec w rows row fub :
  relocate w rows row fub = ROk tt (set_ents w (fixup (w_ents w) rows row)) /\ ~ displaced_dead (w_ents w) rows row \/
  relocate w rows row fub = RFail (FUB fub) w /\ displaced_dead (w_ents w) rows row.
Proof.
  unfold relocate, fixup, set_loc, displaced_dead. destruct (nget rows row) as [[de dv]|]; [|left; rewrite set_ents_eta; split; [reflexivity|now intros (? & ? & ? & _)]].
  destruct (sm_get de (w_ents w)) eqn:E; [left; split; [reflexivity|intros (? & ? & [= <- _] & ?); congruence]|right; eauto].
Qed.

Definition rebuilt (w : world) (D : list (N * cval)) (A : slab) (M : smap eloc) : world :=
  set_ents (set_archs (drop_all D w) A) M.
Lemma rebuilt_eta w D A : set_archs (drop_all D w) A = rebuilt w D A (w_ents w).
Proof. unfold rebuilt. rewrite (drop_all_eq D w). generalize (w_drops (drop_all D w)). now destruct w. Qed.

Definition row_out (w : world) (ai row : N) (a : arch) (vals : list cval) (m : smap eloc) : world :=
  rebuilt w (combine (a_comps a) vals) (slab_set (w_archs w) ai (taken a row)) m.
Definition removed (w : world) (ai row : N) (a : arch) (vals : list cval) (m' : smap eloc) : world :=
  let w4 := row_out w ai row a vals (fixup m' (a_rows (taken a row)) row) in
  if nlen (a_rows (taken a row)) =? 0 then notify_remove w4 ai else w4.

Inductive remove_entity_res (w : world) (ai row : N) : res unit -> Prop :=
| RemOk a e vals v m' : slab_get (w_archs w) ai = Some a -> nget (a_rows a) row = Some (e, vals) -> sm_remove e (w_ents w) = Some (v, m') ->
    ~ displaced_dead m' (a_rows (taken a row)) row -> remove_entity_res w ai row (ROk tt (removed w ai row a vals m'))
| RemNoArch : slab_get (w_archs w) ai = None -> remove_entity_res w ai row (RFail (FUB 510) w)
| RemNoRow a : slab_get (w_archs w) ai = Some a -> nget (a_rows a) row = None -> remove_entity_res w ai row (RFail (FUB 521) w)
| RemNoEnt a e vals : slab_get (w_archs w) ai = Some a -> nget (a_rows a) row = Some (e, vals) -> sm_remove e (w_ents w) = None ->
    remove_entity_res w ai row (RFail (FUB 526) (row_out w ai row a vals (w_ents w)))
| RemNoDisp a e vals v m' : slab_get (w_archs w) ai = Some a -> nget (a_rows a) row = Some (e, vals) -> sm_remove e (w_ents w) = Some (v, m') ->
    displaced_dead m' (a_rows (taken a row)) row -> remove_entity_res w ai row (RFail (FUB 532) (row_out w ai row a vals m')).

Lemma remove_entity_spec w ai row : remove_entity_res w ai row (remove_entity w (ai, row)).
Proof.
  unfold remove_entity. destruct (slab_get (w_archs w) ai) as [a|] eqn:Ha; [|econstructor; eauto].
  destruct (nget (a_rows a) row) as [[e vals]|] eqn:Hr; [|econstructor; eauto]. cbv zeta.
  change (fold_left _ (combine (a_comps a) vals) w) with (drop_all (combine (a_comps a) vals) w).
  rewrite (drop_all_eq _ w). cbn [w_archs w_ents set_drops set_archs]. rewrite <- (drop_all_eq _ w).
  change (set_rows a (swap_remove (a_rows a) row)) with (taken a row).
  destruct (sm_remove e (w_ents w)) as [[v m']|] eqn:Em; [|rewrite rebuilt_eta; econstructor; eauto].
  fold (row_out w ai row a vals m').
  change (match nget (a_rows (taken a row)) row with Some _ => _ | None => _ end) with (relocate (row_out w ai row a vals m') (a_rows (taken a row)) row 532).
  destruct (relocate_spec (row_out w ai row a vals m') (a_rows (taken a row)) row 532) as [[-> H]|[-> H]]; cbn [rbind]; econstructor; eauto.
Qed.

Lemma reserve_one_rows a : a_rows (fst (reserve_one a)) = a_rows a.
Proof. unfold reserve_one. now destruct (nlen (a_rows a) =? a_cap a). Qed.

(* a component the entity already has gets a new value in place (archetype.rs:363-376) *)
Definition overwritten (w : world) (sai srow : N) (sa : arch) (e : key) (vals : list cval) (c : N) (v : cval) (ci : N) : world :=
  set_archs (drop_all [(c, match nget vals ci with Some o => o | None => (0, 0) end)] w)
    (slab_set (w_archs w) sai (set_rows sa (nset (a_rows sa) srow (e, nset vals ci v)))).

Definition row_moved (w : world) (sai srow dst : N) (sa da : arch) (e : key) (dvals : list cval) (killed : list (N * cval))
  (m : smap eloc) : world :=
  rebuilt w killed (slab_set (slab_set (w_archs w) sai (taken sa srow)) dst (pushed da (e, dvals))) m.
Definition moved (w : world) (sai srow dst : N) (sa da : arch) (e : key) (dvals : list cval) (killed : list (N * cval)) : world :=
  let w4 := row_moved w sai srow dst sa da e dvals killed
              (fixup (upd_by_index (w_ents w) (fst e) (fun _ => (dst, nlen (a_rows da)))) (a_rows (taken sa srow)) srow) in
  let w5 := if nlen (a_rows (taken sa srow)) =? 0 then notify_remove w4 sai else w4 in
  if snd (reserve_one da) || (nlen (a_rows (pushed da (e, dvals))) =? 1) then notify_refresh w5 dst else w5.

Inductive move_entity_res (w : world) (sai srow dst : N) (nw : option (N * cval)) : res unit -> Prop :=
| MoveNone sa : sai = dst -> nw = None -> slab_get (w_archs w) sai = Some sa -> move_entity_res w sai srow dst nw (ROk tt w)
| MoveOver sa e vals c v ci : sai = dst -> nw = Some (c, v) -> slab_get (w_archs w) sai = Some sa -> nget (a_rows sa) srow = Some (e, vals) ->
    col_index (a_comps sa) c = Some ci -> move_entity_res w sai srow dst nw (ROk tt (overwritten w sai srow sa e vals c v ci))
| MoveRow sa da e vals dvals killed : sai <> dst -> slab_get (w_archs w) sai = Some sa -> slab_get (w_archs w) dst = Some da ->
    nget (a_rows sa) srow = Some (e, vals) ->
    merge_row (S (length (a_comps sa) + length (a_comps da))) (a_comps sa) vals (a_comps da) nw = Some (dvals, killed) ->
    sm_get e (w_ents w) <> None ->
    ~ displaced_dead (upd_by_index (w_ents w) (fst e) (fun _ => (dst, nlen (a_rows da)))) (a_rows (taken sa srow)) srow ->
    move_entity_res w sai srow dst nw (ROk tt (moved w sai srow dst sa da e dvals killed))
| MoveNoSrc : slab_get (w_archs w) sai = None -> move_entity_res w sai srow dst nw (RFail (FUB 364) w)
| MoveNoCell sa c v : sai = dst -> nw = Some (c, v) -> slab_get (w_archs w) sai = Some sa ->
    nget (a_rows sa) srow = None \/ col_index (a_comps sa) c = None -> move_entity_res w sai srow dst nw (RFail (FUB 370) w)
| MoveNoDst sa : sai <> dst -> slab_get (w_archs w) sai = Some sa -> slab_get (w_archs w) dst = None \/ nget (a_rows sa) srow = None ->
    move_entity_res w sai srow dst nw (RFail (FUB 380) w)
| MoveNoMerge sa da e vals : sai <> dst -> slab_get (w_archs w) sai = Some sa -> slab_get (w_archs w) dst = Some da ->
    nget (a_rows sa) srow = Some (e, vals) ->
    merge_row (S (length (a_comps sa) + length (a_comps da))) (a_comps sa) vals (a_comps da) nw = None ->
    move_entity_res w sai srow dst nw (RFail (FUB 422) w)
| MoveNoEnt sa da e vals dvals killed : sai <> dst -> slab_get (w_archs w) sai = Some sa -> slab_get (w_archs w) dst = Some da ->
    nget (a_rows sa) srow = Some (e, vals) ->
    merge_row (S (length (a_comps sa) + length (a_comps da))) (a_comps sa) vals (a_comps da) nw = Some (dvals, killed) -> sm_get e (w_ents w) = None ->
    move_entity_res w sai srow dst nw (RFail (FUB 482) (row_moved w sai srow dst sa da e dvals killed (w_ents w)))
| MoveNoDisp sa da e vals dvals killed : sai <> dst -> slab_get (w_archs w) sai = Some sa -> slab_get (w_archs w) dst = Some da ->
    nget (a_rows sa) srow = Some (e, vals) ->
    merge_row (S (length (a_comps sa) + length (a_comps da))) (a_comps sa) vals (a_comps da) nw = Some (dvals, killed) -> sm_get e (w_ents w) <> None ->
    displaced_dead (upd_by_index (w_ents w) (fst e) (fun _ => (dst, nlen (a_rows da)))) (a_rows (taken sa srow)) srow ->
    move_entity_res w sai srow dst nw
      (RFail (FUB 488) (row_moved w sai srow dst sa da e dvals killed (upd_by_index (w_ents w) (fst e) (fun _ => (dst, nlen (a_rows da)))))).

Lemma move_entity_spec w sai srow dst nw : move_entity_res w sai srow dst nw (move_entity w (sai, srow) dst nw).
Proof.
  unfold move_entity. destruct (slab_get (w_archs w) sai) as [sa|] eqn:Hsa; [|econstructor; eauto].
  destruct (N.eqb_spec sai dst) as [Esd|Esd].
  - destruct nw as [[c v]|]; [|econstructor; eauto]. destruct (nget (a_rows sa) srow) as [[e vals]|] eqn:Hrow; [|econstructor; eauto].
    destruct (col_index (a_comps sa) c) as [ci|] eqn:Hci; [|econstructor; eauto].
    replace (set_archs _ _) with (overwritten w sai srow sa e vals c v ci) by (unfold overwritten; cbn [drop_all fold_left]; now rewrite (drop_cval_eq w)).
    now constructor.
  - destruct (slab_get (w_archs w) dst) as [da|] eqn:Hda; [|econstructor; eauto]. destruct (nget (a_rows sa) srow) as [[e vals]|] eqn:Hrow; [|econstructor; eauto].
    rewrite (surjective_pairing (reserve_one da)). destruct (merge_row _ _ _ _ _) as [[dvals killed]|] eqn:Em; [|econstructor; eauto]. cbv zeta.
    change (fold_left _ killed w) with (drop_all killed w). rewrite (drop_all_eq _ w). cbn [w_archs w_ents set_drops set_archs]. rewrite <- (drop_all_eq _ w).
    change (set_rows sa (swap_remove (a_rows sa) srow)) with (taken sa srow).
    change (set_rows (fst (reserve_one da)) (a_rows (fst (reserve_one da)) ++ [(e, dvals)])) with (pushed da (e, dvals)). rewrite reserve_one_rows.
    rewrite rebuilt_eta. fold (row_moved w sai srow dst sa da e dvals killed (w_ents w)).
    unfold set_loc at 1. change (w_ents (row_moved w sai srow dst sa da e dvals killed (w_ents w))) with (w_ents w).
    destruct (sm_get e (w_ents w)) as [l0|] eqn:Hge; cbn [rbind]; [|econstructor; eauto].
    set (w3 := set_ents _ _). change w3 with (row_moved w sai srow dst sa da e dvals killed (upd_by_index (w_ents w) (fst e) (fun _ => (dst, nlen (a_rows da))))) in *.
    change (match nget (a_rows (taken sa srow)) srow with Some _ => _ | None => _ end) with (relocate w3 (a_rows (taken sa srow)) srow 488).
    destruct (relocate_spec w3 (a_rows (taken sa srow)) srow 488) as [[-> H]|[-> H]]; cbn [rbind]; [|econstructor; eauto; congruence].
    apply (MoveRow w sai srow dst nw sa da e vals dvals killed); auto. congruence.
Qed.

Definition spawn_loc (w : world) : eloc :=
  match slab_get (w_archs w) 0 with Some a0 => (0, nlen (a_rows a0)) | None => (0, 0) end.
Definition row_spawned (w : world) (a0 : arch) (k : key) : world :=
  let w1 := set_archs w (slab_set (w_archs w) 0 (pushed a0 (k, []))) in
  if (nlen (a_rows (pushed a0 (k, []))) =? 1) || snd (reserve_one a0) then notify_refresh w1 0 else w1.

Lemma arch_spawn_eq w k :
  arch_spawn w k = (spawn_loc w, match slab_get (w_archs w) 0 with Some a0 => row_spawned w a0 k | None => w end).
Proof.
  unfold arch_spawn, spawn_loc. destruct (slab_get (w_archs w) 0) as [a0|]; [|reflexivity].
  rewrite (surjective_pairing (reserve_one a0)). cbv zeta.
  change (set_rows (fst (reserve_one a0)) (a_rows (fst (reserve_one a0)) ++ [(k, [])])) with (pushed a0 (k, [])). now rewrite reserve_one_rows.
Qed.
Lemma arch_spawn_loc w k : fst (arch_spawn w k) = spawn_loc w.
Proof. now rewrite arch_spawn_eq. Qed.
Lemma arch_spawn_ents w k : w_ents (snd (arch_spawn w k)) = w_ents w.
Proof.
  rewrite arch_spawn_eq. cbn [snd]. destruct (slab_get (w_archs w) 0); [|reflexivity]. unfold row_spawned. cbv zeta.
  destruct (_ || _); [now rewrite notify_refresh_eq|reflexivity].
Qed.

(* the key a slot-map insertion returns does not depend on the value: asking for the key first and inserting afterwards
   is one insertion *)
Lemma insert_with_key_first {V B} (f g : key -> V) (m : smap V) (X : B) (G : key -> smap V -> B) (Y : key -> B) :
  match insert_with f m with None => X | Some (k, _) => match insert_with g m with Some (_, m') => G k m' | None => Y k end end
  = match insert_with g m with None => X | Some (k, m') => G k m' end.
Proof. unfold insert_with. destruct (sget (slots m) (next_free m)); [reflexivity|]. now destruct (_ =? U32MAX). Qed.

Lemma spawn_all_n_S n w : spawn_all_n (S n) w =
  match insert_with (fun _ => spawn_loc w) (w_ents w) with
  | None => RFail (FPanic 5) w
  | Some (k, ents') => spawn_all_n n (set_ents (snd (arch_spawn w k)) ents')
  end.
Proof.
  cbn [spawn_all_n].
  etransitivity; [|apply (insert_with_key_first (fun _ => (0, 0)) (fun _ => spawn_loc w) (w_ents w) (RFail (FPanic 5) w)
    (fun k ents' => spawn_all_n n (set_ents (snd (arch_spawn w k)) ents')) (fun k => RFail (FPanic 5) (snd (arch_spawn w k))))].
  destruct (insert_with (V:=N * N) (fun _ => (0, 0)) (w_ents w)) as [[k m0]|]; [|reflexivity].
  rewrite (surjective_pairing (arch_spawn w k)). cbv iota beta. now rewrite arch_spawn_ents, arch_spawn_loc.
Qed.

Lemma spawn_all_n_rule (P : world -> Prop) :
  (forall w k ents', insert_with (fun _ => spawn_loc w) (w_ents w) = Some (k, ents') -> P w -> P (set_ents (snd (arch_spawn w k)) ents')) ->
  forall n w, P w -> match spawn_all_n n w with
                     | ROk _ w' => P w'
                     | RFail f w' => f = FPanic 5 /\ P w' /\ insert_with (fun _ => spawn_loc w') (w_ents w') = None
                     end.
Proof.
  intros Hs. induction n as [|n IH]; intros w HP; [exact HP|]. rewrite spawn_all_n_S.
  destruct (insert_with (fun _ => spawn_loc w) (w_ents w)) as [[k ents']|] eqn:E; [eapply IH, Hs; eauto|auto].
Qed.

Lemma rebuilt_eq w D A M : rebuilt w D A M = set_ents (set_archs (set_drops w (w_drops (drop_all D w))) A) M.
Proof. unfold rebuilt. now rewrite (drop_all_eq D w) at 1. Qed.

Lemma row_spawned_eq w a0 k :
  row_spawned w a0 k = set_hs (set_archs w (slab_set (w_archs w) 0 (pushed a0 (k, [])))) (w_hs (row_spawned w a0 k)).
Proof. unfold row_spawned. cbv zeta. destruct (_ || _); [now rewrite notify_refresh_eq at 1|now rewrite set_hs_eta]. Qed.
Lemma overwritten_eq w sai srow sa e vals c v ci : overwritten w sai srow sa e vals c v ci =
  set_archs (set_drops w (w_drops (drop_all [(c, match nget vals ci with Some o => o | None => (0, 0) end)] w)))
    (slab_set (w_archs w) sai (set_rows sa (nset (a_rows sa) srow (e, nset vals ci v)))).
Proof. unfold overwritten. now rewrite (drop_all_eq _ w) at 1. Qed.
Lemma removed_eq w ai row a vals m' : removed w ai row a vals m' =
  set_hs (set_ents (set_archs (set_drops w (w_drops (drop_all (combine (a_comps a) vals) w))) (slab_set (w_archs w) ai (taken a row)))
            (fixup m' (a_rows (taken a row)) row))
         (w_hs (removed w ai row a vals m')).
Proof.
  unfold removed, row_out. cbv zeta. rewrite rebuilt_eq. destruct (_ =? 0); [now rewrite notify_remove_eq at 1|now rewrite set_hs_eta].
Qed.
Lemma moved_eq w sai srow dst sa da e dvals killed : moved w sai srow dst sa da e dvals killed =
  set_hs (set_ents (set_archs (set_drops w (w_drops (drop_all killed w)))
                      (slab_set (slab_set (w_archs w) sai (taken sa srow)) dst (pushed da (e, dvals))))
            (fixup (upd_by_index (w_ents w) (fst e) (fun _ => (dst, nlen (a_rows da)))) (a_rows (taken sa srow)) srow))
         (w_hs (moved w sai srow dst sa da e dvals killed)).
Proof.
  unfold moved, row_moved. cbv zeta. rewrite rebuilt_eq.
  destruct (_ || _); [rewrite notify_refresh_eq at 1|]; (destruct (_ =? 0); [rewrite notify_remove_eq at 1|]);
    cbn [w_hs set_hs]; rewrite ?set_hs_eta; reflexivity.
Qed.

Lemma move_entity_overwrites w sai srow sa e vals c v ci :
  slab_get (w_archs w) sai = Some sa -> nget (a_rows sa) srow = Some (e, vals) -> col_index (a_comps sa) c = Some ci ->
  move_entity w (sai, srow) sai (Some (c, v)) = ROk tt (overwritten w sai srow sa e vals c v ci).
Proof. intros Ha Hr Hc. destruct (move_entity_spec w sai srow sai (Some (c, v))) as [| | | |? ? ? ? ? ? [|]| | | |]; congruence. Qed.
Lemma move_entity_stays w sai srow sa : slab_get (w_archs w) sai = Some sa -> move_entity w (sai, srow) sai None = ROk tt w.
Proof. intros Ha. destruct (move_entity_spec w sai srow sai None); congruence. Qed.
Lemma move_entity_moves w sai srow dst nw sa da e vals dvals killed :
  sai <> dst -> slab_get (w_archs w) sai = Some sa -> slab_get (w_archs w) dst = Some da -> nget (a_rows sa) srow = Some (e, vals) ->
  merge_row (S (length (a_comps sa) + length (a_comps da))) (a_comps sa) vals (a_comps da) nw = Some (dvals, killed) ->
  sm_get e (w_ents w) <> None ->
  ~ displaced_dead (upd_by_index (w_ents w) (fst e) (fun _ => (dst, nlen (a_rows da)))) (a_rows (taken sa srow)) srow ->
  move_entity w (sai, srow) dst nw = ROk tt (moved w sai srow dst sa da e dvals killed).
Proof.
  intros Hne Hsa Hda Hrow Hm He Hd. destruct (move_entity_spec w sai srow dst nw) as [| |? ? ? ? ? ? ? ? ? ? ? ? ?| | |? ? ? [|]| | |]; try congruence.
  assert (sa0 = sa) by congruence. assert (da0 = da) by congruence. subst. assert (e0 = e) by congruence. subst. contradiction.
Qed.
Lemma remove_entity_removes w ai row a e vals v m' :
  slab_get (w_archs w) ai = Some a -> nget (a_rows a) row = Some (e, vals) -> sm_remove e (w_ents w) = Some (v, m') ->
  ~ displaced_dead m' (a_rows (taken a row)) row -> remove_entity w (ai, row) = ROk tt (removed w ai row a vals m').
Proof.
  intros Ha Hrow Hm Hd. destruct (remove_entity_spec w ai row); congruence.
Qed.
