(* HListProofs.v : the before/after cursor list of src/handler.rs:449-508 always equals
   High ++ Medium ++ Low with each segment in addition order, under insertion of a handler
   newer than all present and under removal; hence every delivery iterates handlers by
   priority and then by addition order. *)
From Coq Require Import List NArith Bool Lia Sorted PeanoNat.
Import ListNotations.
Require Import EV.Base EV.ListN EV.HList.
Open Scope N_scope.

Lemma ninsert_at_len {A} (X Y : list A) (h : A) : ninsert (X ++ Y) (nlen X) h = X ++ h :: Y.
Proof.
  induction X as [|x X IH]; [destruct Y; reflexivity|]. rewrite nlen_cons, N.add_1_r. cbn [app ninsert].
  now rewrite (proj2 (N.eqb_neq _ _) (N.neq_succ_0 _)), N.pred_succ, IH.
Qed.
Lemma nremove_at_len {A} (X Y : list A) (h : A) : nremove (X ++ h :: Y) (nlen X) = X ++ Y.
Proof.
  induction X as [|x X IH]; [reflexivity|]. rewrite nlen_cons, N.add_1_r. cbn [app nremove].
  now rewrite (proj2 (N.eqb_neq _ _) (N.neq_succ_0 _)), N.pred_succ, IH.
Qed.

Section P.
Context {H : Type}.
Variable heqb : H -> H -> bool.
Hypothesis heqb_spec : forall a b, heqb a b = true <-> a = b.
Variable pr : H -> prio.              (* priority of a handler *)
Variable ord : H -> N.                (* its addition number *)

Definition seg (p : prio) (X : list H) : Prop :=
  Forall (fun h => pr h = p) X /\ StronglySorted (fun a b => ord a < ord b) X.
Definition HlInv (l : hlist H) : Prop :=
  exists Hs Ms Ls, hl_entries l = Hs ++ Ms ++ Ls /\ hl_before l = nlen Hs /\ hl_after l = nlen Hs + nlen Ms /\
                   seg High Hs /\ seg Medium Ms /\ seg Low Ls.

Lemma hl_new_inv : HlInv hl_new.
Proof. exists [], [], []. cbn. repeat split; constructor. Qed.

Lemma seg_snoc p X h : seg p X -> pr h = p -> (forall x, In x X -> ord x < ord h) -> seg p (X ++ [h]).
Proof.
  intros [Hf Hs] Hp Hlt. split.
  - apply Forall_app. split; [auto|constructor; auto].
  - induction X as [|x X IH]; cbn; [repeat constructor|].
    inversion Hs; subst. inversion Hf; subst. constructor.
    + apply IH; auto. intros y Hy. apply Hlt. now right.
    + apply Forall_app. split; [auto|constructor; [apply Hlt; now left|constructor]].
Qed.

Ltac hl_split := split; [|split; [|split; [|split; [|split]]]].

Theorem insert_inv l h : HlInv l -> (forall x, In x (hl_entries l) -> ord x < ord h) -> HlInv (hl_insert l h (pr h)).
Proof.
  intros (Hs & Ms & Ls & He & Hb & Ha & SH & SM & SL) Hnew. unfold hl_insert.
  assert (inH : forall x, In x Hs -> ord x < ord h) by (intros; apply Hnew; rewrite He; apply in_or_app; auto).
  assert (inM : forall x, In x Ms -> ord x < ord h) by (intros; apply Hnew; rewrite He; apply in_or_app; right; apply in_or_app; auto).
  assert (inL : forall x, In x Ls -> ord x < ord h) by (intros; apply Hnew; rewrite He; apply in_or_app; right; apply in_or_app; auto).
  destruct (pr h) eqn:Ep; cbn [hl_before hl_after hl_entries].
  - exists (Hs ++ [h]), Ms, Ls. rewrite He, Hb, ninsert_at_len, nlen_app. cbn.
    hl_split; [now rewrite <- app_assoc|reflexivity|rewrite Ha; apply N.add_shuffle0|apply seg_snoc; auto|exact SM|exact SL].
  - exists Hs, (Ms ++ [h]), Ls. rewrite He, Ha, app_assoc, <- nlen_app, ninsert_at_len, !nlen_app.
    hl_split; [now rewrite <- !app_assoc|auto|symmetry; apply N.add_assoc|exact SH|apply seg_snoc; auto|exact SL].
  - exists Hs, Ms, (Ls ++ [h]). rewrite He.
    hl_split; [now rewrite <- !app_assoc|auto|auto|exact SH|exact SM|apply seg_snoc; auto].
Qed.

Lemma hl_position_split h l idx : nposition (heqb h) l = Some idx -> exists X Y, l = X ++ h :: Y /\ nlen X = idx.
Proof.
  intros Hp. destruct (nposition_split _ _ _ Hp) as (X & x & Y & -> & Hl & Hx & _). apply heqb_spec in Hx. subst x. eauto.
Qed.

Lemma seg_remove p X Y h : seg p (X ++ h :: Y) -> seg p (X ++ Y).
Proof.
  intros [Hf Hs]. split.
  - apply Forall_app in Hf as [F1 F2]. inversion F2; subst. apply Forall_app; auto.
  - induction X as [|x X IH]; cbn in *.
    + now inversion Hs.
    + apply StronglySorted_inv in Hs as [Hs' Hx]. inversion Hf; subst. constructor; [apply IH; auto|].
      apply Forall_app in Hx as [G1 G2]. inversion G2; subst. apply Forall_app; auto.
Qed.

Lemma app_split_at {A} (X Y P Q : list A) (h : A) : X ++ h :: Y = P ++ Q ->
  (exists P2, P = X ++ h :: P2 /\ Y = P2 ++ Q) \/ (exists Q1, X = P ++ Q1 /\ Q = Q1 ++ h :: Y).
Proof.
  revert P. induction X as [|x X IH]; intros P E; cbn in E.
  - destruct P as [|p P]; cbn in E.
    + right. exists []. auto.
    + inversion E; subst. left. exists P. auto.
  - destruct P as [|p P]; cbn in E.
    + right. exists (x :: X). auto.
    + inversion E as [[E1 E2]]; subst. destruct (IH _ E2) as [(P2 & -> & ->)|(Q1 & -> & ->)].
      * left. exists P2. auto.
      * right. exists Q1. auto.
Qed.

Theorem remove_inv l h : HlInv l -> HlInv (hl_remove heqb l h).
Proof.
  intros (Hs & Ms & Ls & He & Hb & Ha & SH & SM & SL). unfold hl_remove.
  destruct (nposition (heqb h) (hl_entries l)) as [idx|] eqn:Ep; [|exists Hs, Ms, Ls; hl_split; auto].
  destruct (hl_position_split _ _ _ Ep) as (X & Y & Hxy & Hlen).
  assert (Hrem : nremove (hl_entries l) idx = X ++ Y) by (rewrite Hxy, <- Hlen; apply nremove_at_len).
  rewrite Hrem. rewrite He in Hxy. symmetry in Hxy.
  destruct (app_split_at _ _ _ _ _ Hxy) as [(H2 & EH & EY)|(Q1 & EX & EQ)].
  - (* h in the High segment *)
    subst Hs Y. rewrite nlen_app, nlen_cons in Hb, Ha.
    assert (idx <? hl_after l = true) as -> by (apply N.ltb_lt; lia).
    assert (idx <? hl_before l = true) as -> by (apply N.ltb_lt; lia).
    exists (X ++ H2), Ms, Ls. cbn [hl_before hl_after hl_entries]. rewrite nlen_app.
    hl_split; [now rewrite <- app_assoc|lia|lia|eapply seg_remove; eauto|exact SM|exact SL].
  - symmetry in EQ. destruct (app_split_at _ _ _ _ _ EQ) as [(M2 & EM & EY)|(L1 & EQ1 & EL)].
    + (* h in the Medium segment *)
      subst X Ms Y. rewrite !nlen_app, ?nlen_cons in *.
      assert (idx <? hl_after l = true) as -> by (apply N.ltb_lt; lia).
      assert (idx <? hl_before l = false) as -> by (apply N.ltb_ge; lia).
      exists Hs, (Q1 ++ M2), Ls. cbn [hl_before hl_after hl_entries]. rewrite nlen_app.
      hl_split; [now rewrite <- !app_assoc|lia|lia|exact SH|eapply seg_remove; eauto|exact SL].
    + (* h in the Low segment *)
      subst X Q1 Ls. rewrite !nlen_app in *.
      assert (idx <? hl_after l = false) as -> by (apply N.ltb_ge; lia).
      exists Hs, Ms, (L1 ++ Y). cbn [hl_before hl_after hl_entries].
      hl_split; [now rewrite <- !app_assoc|lia|lia|exact SH|exact SM|eapply seg_remove; eauto].
Qed.

(* the order every delivery iterates in: High before Medium before Low, each by addition number *)
Definition rank (p : prio) : nat := match p with High => 0 | Medium => 1 | Low => 2 end.
Definition before_in_order (a b : H) : Prop :=
  (rank (pr a) < rank (pr b))%nat \/ (rank (pr a) = rank (pr b) /\ ord a < ord b).

Theorem hl_sorted l : HlInv l -> StronglySorted before_in_order (hl_entries l).
Proof.
  intros (Hs & Ms & Ls & -> & _ & _ & [FH SH] & [FM SM] & [FL SL]).
  assert (G : forall p X, Forall (fun h => pr h = p) X -> StronglySorted (fun a b => ord a < ord b) X ->
              forall Z, Forall (fun z => (rank p < rank (pr z))%nat) Z -> StronglySorted before_in_order Z ->
              StronglySorted before_in_order (X ++ Z)).
  { intros p X. induction X as [|x X IH]; intros FX SX Z FZ SZ; cbn; [auto|].
    pose proof (Forall_inv FX) as Px. pose proof (Forall_inv_tail FX) as FX'. cbn beta in Px.
    apply StronglySorted_inv in SX as [SX' Lx]. constructor; [apply IH; auto|].
    apply Forall_app. split.
    - rewrite Forall_forall in *. intros y Hy. right. split; [now rewrite Px, (FX' _ Hy)|auto].
    - rewrite Forall_forall in *. intros z Hz. left. rewrite Px. auto. }
  apply (G High); auto.
  - apply Forall_app. split; rewrite Forall_forall in *; intros z Hz; [rewrite (FM _ Hz)|rewrite (FL _ Hz)]; cbn; lia.
  - apply (G Medium); auto.
    + rewrite Forall_forall in *. intros z Hz. rewrite (FL _ Hz). cbn. lia.
    + rewrite <- (app_nil_r Ls). apply (G Low); auto. constructor.
Qed.

(* removal removes: a list without duplicates no longer contains the removed handler, and the
   relative order of all others is unchanged *)
Lemma hl_remove_entries l h :
  hl_entries (hl_remove heqb l h) =
  match nposition (heqb h) (hl_entries l) with Some idx => nremove (hl_entries l) idx | None => hl_entries l end.
Proof. unfold hl_remove. destruct (nposition (heqb h) (hl_entries l)) as [idx|]; [|reflexivity]. destruct (idx <? hl_after l); reflexivity. Qed.

Theorem remove_not_in l h : NoDup (hl_entries l) -> ~ In h (hl_entries (hl_remove heqb l h)).
Proof.
  intros Hnd. rewrite hl_remove_entries.
  destruct (nposition (heqb h) (hl_entries l)) as [idx|] eqn:Ep.
  - destruct (hl_position_split _ _ _ Ep) as (X & Y & Hxy & Hlen). rewrite Hxy, <- Hlen, nremove_at_len.
    rewrite Hxy in Hnd. apply NoDup_remove_2 in Hnd. exact Hnd.
  - intros Hin. apply (nposition_none _ _ Ep) in Hin. rewrite (proj2 (heqb_spec h h) eq_refl) in Hin. discriminate.
Qed.

Theorem remove_keeps_others l h : exists X Y,
  (hl_entries l = X ++ h :: Y /\ hl_entries (hl_remove heqb l h) = X ++ Y) \/
  (hl_entries (hl_remove heqb l h) = hl_entries l /\ X = [] /\ Y = []).
Proof.
  rewrite hl_remove_entries. destruct (nposition (heqb h) (hl_entries l)) as [idx|] eqn:Ep.
  - destruct (hl_position_split _ _ _ Ep) as (X & Y & Hxy & Hlen). exists X, Y. left.
    split; [exact Hxy|]. rewrite Hxy, <- Hlen. apply nremove_at_len.
  - exists [], []. right. auto.
Qed.
End P.
