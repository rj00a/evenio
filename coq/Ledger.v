(* Ledger.v : destruction of stored component values (C12), effect by effect.
     stored w : the (type tag, serial) of every stored value whose type has a destructor, in
                slab / row / column order;  w_drops w : the destruction ledger.
   Each structural operation appends to the ledger exactly the values that leave the storage:
     stored w' ++ newly destroyed  is a permutation of  stored w ++ newly inserted  ([led]),
   and dropping the world destroys exactly [stored w], each value once.  The statement is about
   multisets of (tag, serial), so it covers zero-sized types (whose values all carry serial 0)
   as well as sized ones. *)
From Coq Require Import List NArith Bool Lia Sorted Permutation.
Import ListNotations.
Require Import EV.Base EV.ListN EV.Access EV.Query EV.SlotMap EV.Reserve EV.HList EV.Loop EV.World EV.StorageSpec EV.SlotMapGet
  EV.ArchProofs EV.WorldFrame EV.Store EV.Graph EV.Effects EV.Reach EV.RemoveComp EV.Member EV.Listen.
Open Scope N_scope.

(* the ledger entries of a list of (component index, value) pairs, given the component tags *)
Definition tracked_cv (tg : N -> N) (cvs : list (N * cval)) : list (N * N) :=
  flat_map (fun '(c, v) => if ctag_has_drop (tg c) then [(tg c, fst v)] else []) cvs.
Definition rstored (tg : N -> N) (a : arch) (vals : list cval) : list (N * N) := tracked_cv tg (combine (a_comps a) vals).
Definition astored (tg : N -> N) (a : arch) : list (N * N) := flat_map (fun r : key * list cval => rstored tg a (snd r)) (a_rows a).
Definition stored (w : world) : list (N * N) := flat_map (fun p : N * arch => astored (comp_tag w) (snd p)) (slab_iter (w_archs w)).

Lemma flat_map_perm {A B} (f : A -> list B) l l' : Permutation l l' -> Permutation (flat_map f l) (flat_map f l').
Proof. apply Permutation_flat_map. Qed.
Lemma nset_split {A} (v1 : list A) old v2 x : nset (v1 ++ old :: v2) (nlen v1) x = v1 ++ x :: v2.
Proof. apply nset_app_mid. Qed.

Lemma tracked_cv_app tg x y : tracked_cv tg (x ++ y) = tracked_cv tg x ++ tracked_cv tg y.
Proof. unfold tracked_cv. apply flat_map_app. Qed.
Lemma tracked_cv_perm tg x y : Permutation x y -> Permutation (tracked_cv tg x) (tracked_cv tg y).
Proof. apply Permutation_flat_map. Qed.

Lemma tracked_tag_ext tg tg' cvs : (forall c, tg' c = tg c) -> tracked_cv tg' cvs = tracked_cv tg cvs.
Proof. intros E. unfold tracked_cv. apply flat_map_ext. intros [c v]. now rewrite E. Qed.
Lemma astored_tag_ext tg tg' a : (forall c, tg' c = tg c) -> astored tg' a = astored tg a.
Proof. intros E. unfold astored. apply flat_map_ext. intros r. now apply tracked_tag_ext. Qed.
Lemma stored_tag_ext w w' : w_archs w' = w_archs w -> (forall c, comp_tag w' c = comp_tag w c) -> stored w' = stored w.
Proof. intros Ea Etg. unfold stored. rewrite Ea. apply flat_map_ext. intros p. now apply astored_tag_ext. Qed.
Lemma comp_tag_same w w' : w_comps w' = w_comps w -> forall c, comp_tag w' c = comp_tag w c.
Proof. intros E c. unfold comp_tag. now rewrite E. Qed.
Lemma stored_same w w' : w_archs w' = w_archs w -> w_comps w' = w_comps w -> stored w' = stored w.
Proof. intros Ea Ec. apply stored_tag_ext; [exact Ea|now apply comp_tag_same]. Qed.

Lemma comp_tag_drops w t v c : comp_tag (drop_cval w t v) c = comp_tag w c.
Proof. unfold drop_cval. now destruct (ctag_has_drop t). Qed.

Lemma notify_remove_fields w ai : w_archs (notify_remove w ai) = w_archs w /\ w_drops (notify_remove w ai) = w_drops w /\ w_comps (notify_remove w ai) = w_comps w.
Proof. rewrite notify_remove_eq. repeat split. Qed.
Lemma notify_refresh_fields w ai : w_archs (notify_refresh w ai) = w_archs w /\ w_drops (notify_refresh w ai) = w_drops w /\ w_comps (notify_refresh w ai) = w_comps w.
Proof. rewrite notify_refresh_eq. repeat split. Qed.

Lemma drops_fold_spec cvs : forall w,
  w_drops (fold_left (fun (w' : world) '(c, v) => drop_cval w' (comp_tag w' c) v) cvs w) = w_drops w ++ tracked_cv (comp_tag w) cvs.
Proof.
  induction cvs as [|[c v] t IH]; intros w; cbn [fold_left]; [now rewrite app_nil_r|].
  rewrite IH, (tracked_tag_ext _ _ t (comp_tag_drops w (comp_tag w c) v)). unfold drop_cval, tracked_cv. cbn [flat_map].
  destruct (ctag_has_drop (comp_tag w c)); cbn [w_drops log_drop set_drops]; [now rewrite <- app_assoc|reflexivity].
Qed.

Lemma killed_fold_spec killed : forall w,
  let w1 := fold_left (fun (w' : world) '(c, v) => drop_cval w' (comp_tag w' c) v) killed w in
  w_drops w1 = w_drops w ++ tracked_cv (comp_tag w) killed /\ w_comps w1 = w_comps w.
Proof. intros w. split; [apply drops_fold_spec|apply (r_drop_fold w_comps); fr]. Qed.
Lemma rows_drop_spec a rows : forall w,
  let w1 := fold_left (fun (w'' : world) '(_, vals) => fold_left (fun w3 '(c, v) => drop_cval w3 (comp_tag w3 c) v) (combine (a_comps a) vals) w'') rows w in
  w_drops w1 = w_drops w ++ flat_map (fun r : key * list cval => rstored (comp_tag w) a (snd r)) rows /\ w_comps w1 = w_comps w.
Proof.
  induction rows as [|[e vals] t IH]; intros w; cbn zeta; cbn [fold_left flat_map snd]; [rewrite app_nil_r; auto|].
  set (w1 := fold_left _ (combine (a_comps a) vals) w). destruct (IH w1) as [C D]. cbn zeta in C, D.
  assert (B : w_comps w1 = w_comps w) by (apply (r_drop_fold w_comps); fr).
  rewrite C, D. split; [|exact B]. unfold w1 at 1. rewrite drops_fold_spec, <- app_assoc. do 2 f_equal.
  apply flat_map_ext. intros r. apply tracked_tag_ext, comp_tag_same, B.
Qed.

Theorem op_drop_spec w : w_drops (op_drop w) = w_drops w ++ stored w.
Proof.
  unfold op_drop, stored. generalize (slab_iter (w_archs w)). intros L.
  assert (G : forall L w0, w_comps w0 = w_comps w ->
    w_drops (fold_left (fun (w' : world) '(_, a) => fold_left (fun (w'' : world) '(_, vals) => fold_left (fun w3 '(c, v) => drop_cval w3 (comp_tag w3 c) v) (combine (a_comps a) vals) w'') (a_rows a) w') L w0)
      = w_drops w0 ++ flat_map (fun p : N * arch => astored (comp_tag w) (snd p)) L).
  { clear L. induction L as [|[ai a] L IH]; intros w0 E0; cbn [fold_left flat_map snd]; [now rewrite app_nil_r|].
    destruct (rows_drop_spec a (a_rows a) w0) as [A B]. cbn zeta in A, B. rewrite IH by congruence. rewrite A, <- app_assoc. do 2 f_equal.
    exact (astored_tag_ext _ _ a (comp_tag_same w w0 E0)). }
  now apply G.
Qed.

Lemma flat_map_mid_perm {A B} (f : A -> list B) l1 x y l2 X Y :
  Permutation (f y ++ X) (f x ++ Y) -> Permutation (flat_map f (l1 ++ y :: l2) ++ X) (flat_map f (l1 ++ x :: l2) ++ Y).
Proof.
  intros H. rewrite !flat_map_app. cbn [flat_map]. rewrite <- !app_assoc. apply Permutation_app_head.
  rewrite (Permutation_app_swap_app (f y)), (Permutation_app_swap_app (f x)). now apply Permutation_app_head.
Qed.

Lemma flat_map_nset_perm {A B} (f : A -> list B) l i x y X Y : nget l i = Some x ->
  Permutation (f y ++ X) (f x ++ Y) -> Permutation (flat_map f (nset l i y) ++ X) (flat_map f l ++ Y).
Proof. intros Hg H. destruct (nget_split l i x Hg) as (l1 & l2 & -> & <-). rewrite nset_app_mid. now apply flat_map_mid_perm. Qed.

Lemma slab_iter_from_app l1 : forall l2 i0, slab_iter_from (l1 ++ l2) i0 = slab_iter_from l1 i0 ++ slab_iter_from l2 (i0 + nlen l1).
Proof.
  induction l1 as [|e t IH]; intros l2 i0; cbn [app slab_iter_from]; [now rewrite nlen_nil, N.add_0_r|].
  rewrite nlen_cons. replace (i0 + (nlen t + 1)) with (i0 + 1 + nlen t) by lia. destruct e; cbn [app]; now rewrite IH.
Qed.
Lemma slab_iter_from_nset l i0 i e a' : nget l i = Some e ->
  exists l1 l2, slab_iter_from l i0 = l1 ++ slab_iter_from [e] (i0 + i) ++ l2 /\ slab_iter_from (nset l i (SOcc a')) i0 = l1 ++ (i0 + i, a') :: l2.
Proof.
  intros Hg. destruct (nget_split l i e Hg) as (la & lb & -> & <-). rewrite nset_app_mid, !slab_iter_from_app.
  exists (slab_iter_from la i0), (slab_iter_from lb (i0 + nlen la + 1)). split; [f_equal; exact (slab_iter_from_app [e] lb _)|reflexivity].
Qed.
Lemma slab_iter_from_set l : forall i0 i a a', nget l i = Some (SOcc a) ->
  exists l1 l2, slab_iter_from l i0 = l1 ++ (i0 + i, a) :: l2 /\ slab_iter_from (nset l i (SOcc a')) i0 = l1 ++ (i0 + i, a') :: l2.
Proof. intros i0 i a a' H. exact (slab_iter_from_nset l i0 i (SOcc a) a' H). Qed.
Lemma slab_iter_from_vac l : forall i0 i nx a, nget l i = Some (SVac nx) ->
  exists l1 l2, slab_iter_from l i0 = l1 ++ l2 /\ slab_iter_from (nset l i (SOcc a)) i0 = l1 ++ (i0 + i, a) :: l2.
Proof. intros i0 i nx a H. exact (slab_iter_from_nset l i0 i (SVac nx) a H). Qed.
Lemma slab_iter_set s i a a' : slab_get s i = Some a -> exists l1 l2, slab_iter s = l1 ++ (i, a) :: l2 /\ slab_iter (slab_set s i a') = l1 ++ (i, a') :: l2.
Proof.
  unfold slab_get, slab_iter, slab_set. cbn [sl_entries]. intros H. destruct (nget (sl_entries s) i) as [[a0|]|] eqn:E; try discriminate. inversion H; subst a0.
  destruct (slab_iter_from_nset (sl_entries s) 0 i _ a' E) as (l1 & l2 & A & B). exists l1, l2. now rewrite A, B.
Qed.

Lemma stored_set w i a a' w' : slab_get (w_archs w) i = Some a -> w_archs w' = slab_set (w_archs w) i a' -> w_comps w' = w_comps w ->
  forall X Y, Permutation (astored (comp_tag w) a' ++ X) (astored (comp_tag w) a ++ Y) -> Permutation (stored w' ++ X) (stored w ++ Y).
Proof.
  intros Ha Ear Ec X Y HP. unfold stored. rewrite Ear. destruct (slab_iter_set (w_archs w) i a a' Ha) as (l1 & l2 & -> & ->).
  rewrite (flat_map_ext _ _ (fun p => astored_tag_ext _ _ (snd p) (comp_tag_same w w' Ec))).
  now apply (flat_map_mid_perm (fun p : N * arch => astored (comp_tag w) (snd p))).
Qed.
Lemma stored_set_eq w i a a' w' : slab_get (w_archs w) i = Some a -> w_archs w' = slab_set (w_archs w) i a' -> w_comps w' = w_comps w ->
  astored (comp_tag w) a' = astored (comp_tag w) a -> stored w' = stored w.
Proof.
  intros Ha Ear Ec E. unfold stored. rewrite Ear. destruct (slab_iter_set (w_archs w) i a a' Ha) as (l1 & l2 & -> & ->).
  rewrite (flat_map_ext _ _ (fun p => astored_tag_ext _ _ (snd p) (comp_tag_same w w' Ec))), !flat_map_app. cbn [flat_map snd]. now rewrite E.
Qed.

Lemma stored_same_rows w w' i a a' : slab_get (w_archs w) i = Some a -> w_archs w' = slab_set (w_archs w) i a' -> w_comps w' = w_comps w ->
  a_comps a' = a_comps a -> a_rows a' = a_rows a -> Permutation (stored w') (stored w).
Proof. intros Ha Ear Ec Hc Hr. rewrite (stored_set_eq w i a a' w' Ha Ear Ec); [reflexivity|]. unfold astored, rstored. now rewrite Hr, Hc. Qed.

Lemma rows_swap_remove_perm (rows : list (key * list cval)) row x : nget rows row = Some x -> Permutation rows (x :: swap_remove rows row).
Proof.
  intros H. destruct (nget_split rows row x H) as (l1 & l2 & -> & <-).
  transitivity (x :: l1 ++ l2); [symmetry; apply Permutation_middle|]. constructor. symmetry. apply swap_remove_perm.
Qed.

Lemma astored_rows tg a rows : astored tg (set_rows a rows) = flat_map (fun r : key * list cval => rstored tg a (snd r)) rows.
Proof. reflexivity. Qed.

Lemma stored_take_row w w' ai a row e vals : slab_get (w_archs w) ai = Some a -> nget (a_rows a) row = Some (e, vals) ->
  w_archs w' = slab_set (w_archs w) ai (set_rows a (swap_remove (a_rows a) row)) -> w_comps w' = w_comps w ->
  Permutation (stored w' ++ rstored (comp_tag w) a vals) (stored w).
Proof.
  intros Ha Hrow Ear Ec. rewrite <- (app_nil_r (stored w)). apply (stored_set w ai a _ w' Ha Ear Ec). rewrite app_nil_r, astored_rows.
  unfold astored. rewrite (rows_swap_remove_perm (a_rows a) row (e, vals) Hrow) at 2. apply Permutation_app_comm.
Qed.

Lemma astored_push tg a e vals : astored tg (pushed a (e, vals)) = astored tg a ++ rstored tg a vals.
Proof. rewrite pushed_eq, astored_rows, flat_map_app. cbn [flat_map snd]. now rewrite app_nil_r. Qed.

Lemma combine_app_eq {A B} (a1 a2 : list A) (b1 b2 : list B) : length a1 = length b1 -> combine (a1 ++ a2) (b1 ++ b2) = combine a1 b1 ++ combine a2 b2.
Proof. revert b1. induction a1 as [|x a1 IH]; intros [|y b1] H; cbn in *; try discriminate; [reflexivity|]. f_equal. apply IH. lia. Qed.
Lemma combine_split_at (cs : list N) : forall (vs : list cval) ci c, col_index cs c = Some ci -> length vs = length cs ->
  exists c1 c2 v1 old v2, cs = c1 ++ c :: c2 /\ vs = v1 ++ old :: v2 /\ length v1 = length c1 /\ nlen v1 = ci /\ nget vs ci = Some old.
Proof.
  induction cs as [|h t IH]; intros vs ci c Hc Hl; [discriminate|]. destruct vs as [|v vs]; [discriminate|]. cbn [col_index] in Hc. destruct (c =? h) eqn:E.
  - apply N.eqb_eq in E. subst h. inversion Hc; subst ci. exists [], t, [], v, vs. split; [reflexivity|]. split; [reflexivity|]. split; [reflexivity|]. split; reflexivity.
  - destruct (col_index t c) as [j|] eqn:Ej; [|discriminate]. inversion Hc; subst ci. cbn [length] in Hl. injection Hl as Hl.
    destruct (IH vs j c Ej Hl) as (c1 & c2 & v1 & old & v2 & -> & -> & L1 & L2 & L3). exists (h :: c1), c2, (v :: v1), old, v2. cbn [app length].
    split; [reflexivity|]. split; [reflexivity|]. split; [congruence|]. split.
    + rewrite nlen_cons. lia.
    + cbn [nget]. replace (N.succ j =? 0) with false by (symmetry; apply N.eqb_neq; lia). now rewrite N.pred_succ.
Qed.

Lemma rstored_nset tg c v : forall cs vs ci, col_index cs c = Some ci -> length vs = length cs ->
  Permutation (tracked_cv tg (combine cs (nset vs ci v)) ++ tracked_cv tg [(c, match nget vs ci with Some o => o | None => (0, 0) end)])
              (tracked_cv tg (combine cs vs) ++ tracked_cv tg [(c, v)]).
Proof.
  induction cs as [|h t IH]; intros [|x vs] ci Hc Hl; try discriminate. cbn [col_index] in Hc. destruct (c =? h) eqn:E.
  - apply N.eqb_eq in E. subst h. injection Hc as <-. cbn. rewrite !app_nil_r, <- !app_assoc, Permutation_app_rot, Permutation_app_swap_app. reflexivity.
  - destruct (col_index t c) as [j|] eqn:Ej; [|discriminate]. injection Hc as <-. cbn [nset nget].
    rewrite (proj2 (N.eqb_neq _ _) (N.neq_succ_0 j)), N.pred_succ. cbn [combine tracked_cv flat_map]. rewrite <- !app_assoc.
    apply Permutation_app_head. apply (IH vs j eq_refl). now injection Hl.
Qed.

Theorem remove_entity_ledger w ai row a e vals w' :
  remove_entity w (ai, row) = ROk tt w' -> slab_get (w_archs w) ai = Some a -> nget (a_rows a) row = Some (e, vals) ->
  w_drops w' = w_drops w ++ rstored (comp_tag w) a vals /\ w_comps w' = w_comps w /\
  Permutation (stored w' ++ rstored (comp_tag w) a vals) (stored w).
Proof.
  intros Hm Ha Hrow. revert Hm. destruct (remove_entity_spec w ai row) as [a0 e0 vals0 v m' Ha0 Hrow0 _ _| | | |]; intros [= <-].
  assert (a0 = a) by congruence. subst a0. assert (E : (e0, vals0) = (e, vals)) by congruence. injection E as -> ->. rewrite removed_eq.
  split; [apply drops_fold_spec|]. split; [reflexivity|]. now apply (stored_take_row w _ ai a row e vals Ha Hrow).
Qed.

Theorem move_entity_ledger w sai srow dst nw sa e vals w' :
  move_entity w (sai, srow) dst nw = ROk tt w' -> slab_get (w_archs w) sai = Some sa -> nget (a_rows sa) srow = Some (e, vals) -> length vals = length (a_comps sa) ->
  exists newdrops, w_drops w' = w_drops w ++ newdrops /\ w_comps w' = w_comps w /\
    Permutation (stored w' ++ newdrops) (stored w ++ tracked_cv (comp_tag w) (new_pair nw)).
Proof.
  intros Hm Hsa Hrow Hlen. revert Hm.
  destruct (move_entity_spec w sai srow dst nw) as [|sa0 e0 vals0 c v ci _ -> Hsa0 Hrow0 Hci|sa0 da e0 vals0 dvals killed Esd Hsa0 Hda Hrow0 Emr _ _| | | | | |];
    intros [= <-]; try (assert (sa0 = sa) by congruence; subst sa0; assert (E : (e0, vals0) = (e, vals)) by congruence; injection E as -> ->).
  - subst nw. exists []. cbn [new_pair tracked_cv flat_map]. rewrite !app_nil_r. auto.
  - (* in place *)
    set (old := match nget vals ci with Some o => o | None => (0, 0) end). exists (tracked_cv (comp_tag w) [(c, old)]). rewrite overwritten_eq. fold old.
    split; [exact (drops_fold_spec [(c, old)] w)|]. split; [reflexivity|].
    eapply (stored_set w sai sa _ _ Hsa); [reflexivity|reflexivity|].
    rewrite astored_rows. apply (flat_map_nset_perm _ _ _ _ _ _ _ Hrow). now apply rstored_nset.
  - (* to another archetype: the row leaves the source, then enters the destination *)
    destruct (merge_row_conserves _ _ _ _ _ _ _ Hlen Emr) as [_ Hperm]. rewrite moved_eq.
    exists (tracked_cv (comp_tag w) killed). split; [apply drops_fold_spec|]. split; [reflexivity|].
    set (wm := set_archs w (slab_set (w_archs w) sai (taken sa srow))).
    pose proof (stored_take_row w wm sai sa srow e vals Hsa Hrow eq_refl eq_refl) as P1.
    match goal with |- Permutation (stored ?x ++ _) _ => set (wf := x) end.
    assert (P2 : Permutation (stored wf ++ []) (stored wm ++ rstored (comp_tag w) da dvals)).
    { apply (stored_set wm dst da (pushed da (e, dvals)) wf); [cbn [wm w_archs set_archs]; now rewrite slab_get_set_neq by exact Esd|reflexivity|reflexivity|].
      change (comp_tag wm) with (comp_tag w). now rewrite astored_push, app_nil_r. }
    assert (P3 : Permutation (rstored (comp_tag w) da dvals ++ tracked_cv (comp_tag w) killed) (rstored (comp_tag w) sa vals ++ tracked_cv (comp_tag w) (new_pair nw))).
    { unfold rstored. rewrite <- !tracked_cv_app. now apply tracked_cv_perm. }
    rewrite app_nil_r in P2. now rewrite P2, <- app_assoc, P3, app_assoc, P1.
Qed.

Lemma stored_insert_empty w w' a1 : w_archs w' = slab_insert (w_archs w) a1 -> a_rows a1 = [] -> (forall c, comp_tag w' c = comp_tag w c) -> stored w' = stored w.
Proof.
  intros Ear Hr Etg. unfold stored. rewrite Ear, (flat_map_ext _ _ (fun p => astored_tag_ext _ _ (snd p) Etg)).
  assert (E1 : astored (comp_tag w) a1 = []) by (unfold astored; now rewrite Hr).
  unfold slab_insert, slab_iter. destruct (sl_next (w_archs w) =? nlen (sl_entries (w_archs w))) eqn:E.
  - cbn [sl_entries]. rewrite slab_iter_from_app, flat_map_app. cbn [slab_iter_from flat_map snd]. now rewrite E1, !app_nil_r.
  - destruct (nget (sl_entries (w_archs w)) (sl_next (w_archs w))) as [[a0|nx]|] eqn:Eg; try reflexivity. cbn [sl_entries].
    destruct (slab_iter_from_nset (sl_entries (w_archs w)) 0 (sl_next (w_archs w)) _ a1 Eg) as (l1 & l2 & -> & ->). rewrite !flat_map_app. cbn [flat_map snd]. now rewrite E1.
Qed.

Lemma comp_tag_gbi w c : comp_tag w c = match get_by_index (w_comps w) c with Some (_, ci) => c_tag ci | None => 99 end.
Proof. unfold comp_tag, get_by_index. destruct (sget (slots (w_comps w)) c) as [s|]; [|reflexivity]. now destruct (val s). Qed.
Lemma comp_tag_creg w w' : creg w' = creg w -> forall c, comp_tag w' c = comp_tag w c.
Proof.
  intros H c. injection H as Hm _ _. pose proof (slots_view_gbi cstat _ _ c Hm) as E. rewrite !comp_tag_gbi.
  destruct (get_by_index (w_comps w') c) as [[k' ci']|], (get_by_index (w_comps w) c) as [[k ci]|]; cbn in E; try discriminate; [|reflexivity]. unfold cstat in E. congruence.
Qed.

Lemma upd_edges_stored w ai i r : stored (upd_arch w ai (fun a => set_edges a (i a) (r a))) = stored w.
Proof. unfold upd_arch. destruct (slab_get (w_archs w) ai) as [a|] eqn:Ha; [|reflexivity]. now apply (stored_set_eq w ai a (set_edges a (i a) (r a)) _ Ha). Qed.

Lemma create_arch_stored w cs ins rem : stored (snd (create_arch w cs ins rem)) = stored w.
Proof.
  destruct (create_arch_spec w cs ins rem) as (a1 & (_ & Hr & _) & _ & Harchs & _).
  apply (stored_insert_empty w _ a1 Harchs Hr). apply comp_tag_creg, creg_create_arch.
Qed.

Lemma traverse_insert_ledger w src c : let w1 := res_world (traverse_insert w src c) in
  w_drops w1 = w_drops w /\ (forall x, comp_tag w1 x = comp_tag w x) /\ stored w1 = stored w.
Proof.
  cbn zeta. split; [apply (r_traverse_insert w_drops); fr|]. split; [apply comp_tag_creg, creg_traverse_insert|].
  apply (traverse_insert_keeps (fun w' => stored w' = stored w)); [intros w1 i r <-; apply upd_edges_stored|intros; apply create_arch_stored|reflexivity].
Qed.
Lemma traverse_remove_ledger w src c : let w1 := res_world (traverse_remove w src c) in
  w_drops w1 = w_drops w /\ stored w1 = stored w.
Proof.
  cbn zeta. split; [apply (r_traverse_remove w_drops); fr|].
  apply (traverse_remove_keeps (fun w' => stored w' = stored w)); [intros w1 i r <-; apply upd_edges_stored|intros; apply create_arch_stored|reflexivity].
Qed.

Lemma arch_spawn_stored w e : stored (snd (arch_spawn w e)) = stored w.
Proof.
  rewrite arch_spawn_eq. cbn [snd]. destruct (slab_get (w_archs w) 0) as [a0|] eqn:Ha; [|reflexivity]. rewrite row_spawned_eq.
  apply (stored_set_eq w 0 a0 (pushed a0 (e, [])) _ Ha); [reflexivity|reflexivity|]. rewrite astored_push. unfold rstored. rewrite combine_nil. apply app_nil_r.
Qed.
Lemma arch_spawn_ledger w e : let w1 := snd (arch_spawn w e) in w_drops w1 = w_drops w /\ w_comps w1 = w_comps w /\ Permutation (stored w1) (stored w).
Proof. cbn zeta. rewrite arch_spawn_stored. split; [apply (r_arch_spawn w_drops); fr|split; [apply (r_arch_spawn w_comps); fr|reflexivity]]. Qed.

Lemma stored_set_ents w x : stored (set_ents w x) = stored w. Proof. reflexivity. Qed.

Lemma spawn_all_n_ledger n : forall w, let w1 := res_world (spawn_all_n n w) in w_drops w1 = w_drops w /\ w_comps w1 = w_comps w /\ Permutation (stored w1) (stored w).
Proof.
  intros w. cbn zeta. split; [apply (r_spawn_all_n w_drops); fr|]. split; [apply (r_spawn_all_n w_comps); fr|].
  apply (spawn_all_n_keeps (fun w' => Permutation (stored w') (stored w))); [|reflexivity]. intros w0 k ents' _. now rewrite stored_set_ents, arch_spawn_stored.
Qed.
Lemma spawn_all_ledger w : let w1 := res_world (spawn_all w) in w_drops w1 = w_drops w /\ w_comps w1 = w_comps w /\ Permutation (stored w1) (stored w).
Proof.
  cbn zeta. split; [apply (r_spawn_all w_drops); fr|]. split; [apply (r_spawn_all w_comps); fr|].
  apply (spawn_all_keeps (fun w' => Permutation (stored w') (stored w))); [|auto|reflexivity]. intros w0 k ents' _. now rewrite stored_set_ents, arch_spawn_stored.
Qed.

(* a ledger step: the values [nd] are destroyed, the values [add] enter the storage *)
Definition led (w w' : world) (nd add : list (N * N)) : Prop :=
  w_drops w' = w_drops w ++ nd /\ Permutation (stored w' ++ nd) (stored w ++ add).
Lemma led_refl w : led w w [] [].
Proof. split; [now rewrite app_nil_r|reflexivity]. Qed.
Lemma led_trans w0 w1 w2 n1 a1 n2 a2 : led w0 w1 n1 a1 -> led w1 w2 n2 a2 -> led w0 w2 (n1 ++ n2) (a1 ++ a2).
Proof.
  intros [D1 P1] [D2 P2]. split; [now rewrite D2, D1, app_assoc|].
  rewrite (Permutation_app_comm n1), !app_assoc, P2, <- P1, <- !app_assoc. apply Permutation_app_head, Permutation_app_comm.
Qed.

Lemma move_entity_led w e sai srow dst nw w' : StoreInv w -> sm_get e (w_ents w) = Some (sai, srow) ->
  move_entity w (sai, srow) dst nw = ROk tt w' -> exists nd, led w w' nd (tracked_cv (comp_tag w) (new_pair nw)).
Proof.
  intros (_ & Hl & Hr) Hloc Hm. destruct (Hl _ _ _ Hloc) as (sa & vals & Hsa & Hrow).
  destruct (move_entity_ledger w sai srow dst nw sa e vals w' Hm Hsa Hrow (proj2 (Hr _ _ _ _ _ Hsa Hrow))) as (nd & A & _ & C).
  exists nd. now split.
Qed.

Theorem insert_effect_ledger w e loc c ev w' :
  WInv w -> sm_get e (w_ents w) = Some loc -> builtin_effect (KInsert c) ev loc w = ROk tt w' ->
  exists newdrops, w_drops w' = w_drops w ++ newdrops /\
    Permutation (stored w' ++ newdrops) (stored w ++ tracked_cv (comp_tag w) [(c, (ev_ser ev, ev_val ev))]).
Proof.
  intros (Hst & Hg & _) Hloc Heff. destruct loc as [sai srow]. cbn [builtin_effect fst] in Heff.
  destruct (proj1 (proj2 Hst) _ _ _ Hloc) as (sa & vals & Hsa & _).
  destruct (traverse_insert_ok w sai sa c Hst Hg Hsa) as (d & w1 & Et & Hst1 & _ & _ & He1 & _).
  destruct (traverse_insert_ledger w sai c) as (D1 & T1 & P1). cbn zeta in D1, T1, P1. rewrite Et in *. cbn [rbind res_world] in *.
  rewrite <- He1 in Hloc. rewrite <- D1, <- P1, <- (tracked_tag_ext _ _ _ T1). exact (move_entity_led w1 e sai srow d _ w' Hst1 Hloc Heff).
Qed.

Theorem remove_effect_ledger w e loc c ev w' :
  WInv w -> sm_get e (w_ents w) = Some loc -> builtin_effect (KRemove c) ev loc w = ROk tt w' ->
  exists newdrops, w_drops w' = w_drops w ++ newdrops /\ Permutation (stored w' ++ newdrops) (stored w).
Proof.
  intros (Hst & Hg & _) Hloc Heff. destruct loc as [sai srow]. cbn [builtin_effect fst] in Heff.
  destruct (proj1 (proj2 Hst) _ _ _ Hloc) as (sa & vals & Hsa & _).
  destruct (traverse_remove_ok w sai sa c Hst Hg Hsa) as (d & w1 & Et & Hst1 & _ & _ & He1 & _).
  destruct (traverse_remove_ledger w sai c) as (D1 & P1). cbn zeta in D1, P1. rewrite Et in *. cbn [rbind res_world] in *.
  rewrite <- He1 in Hloc. destruct (move_entity_led w1 e sai srow d None w' Hst1 Hloc Heff) as (nd & A & B).
  exists nd. rewrite <- D1, <- P1. split; [exact A|]. now rewrite app_nil_r in B.
Qed.

Theorem despawn_effect_ledger w e loc ev w' :
  WInv w -> sm_get e (w_ents w) = Some loc -> builtin_effect KDespawn ev loc w = ROk tt w' ->
  exists newdrops, w_drops w' = w_drops w ++ newdrops /\ Permutation (stored w' ++ newdrops) (stored w).
Proof.
  intros HW Hloc Heff. cbn [builtin_effect] in Heff. pose proof (spawn_all_ok w HW) as Hsp. destruct (spawn_all_ledger w) as (D1 & _ & P1). cbn zeta in D1, P1.
  destruct (spawn_all w) as [[] w2|f w2]; cbn [rbind res_world] in *; [|discriminate]. destruct Hsp as (HW2 & Hl2 & _).
  assert (Hlive : sm_get e (w_ents w) <> None) by congruence. destruct (Hl2 e Hlive) as [He2 _]. rewrite Hloc in He2.
  destruct loc as [ai row]. destruct (proj1 (proj2 (proj1 HW2)) _ _ _ He2) as (a & vals & Ha & Hrow).
  destruct (remove_entity w2 (ai, row)) as [[] w3|f w3] eqn:Er; cbn [rbind] in Heff; [|discriminate]. injection Heff as <-.
  destruct (remove_entity_ledger w2 ai row a e vals w3 Er Ha Hrow) as (A & _ & C).
  exists (rstored (comp_tag w2) a vals). rewrite <- D1, <- P1. split; [exact A|exact C].
Qed.

Theorem spawn_effect_ledger w ev loc : let w' := res_world (builtin_effect KSpawn ev loc w) in
  w_drops w' = w_drops w /\ Permutation (stored w') (stored w).
Proof. cbn zeta. cbn [builtin_effect]. destruct (spawn_all_ledger w) as (A & _ & C). split; assumption. Qed.

(* the four together: the only values an effect puts into the storage are those of an inserted component *)
Definition effect_adds (w : world) (kind : ekind) (ev : evv) : list (N * N) :=
  match kind with KInsert c => tracked_cv (comp_tag w) [(c, (ev_ser ev, ev_val ev))] | _ => [] end.
Theorem builtin_effect_led kind ev loc w e w' :
  WInv w -> (targeted_kind kind = true -> sm_get e (w_ents w) = Some loc) -> builtin_effect kind ev loc w = ROk tt w' ->
  exists nd, led w w' nd (effect_adds w kind ev).
Proof.
  intros HW Hloc Heff. destruct kind as [|c|c| |]; cbn [effect_adds].
  - injection Heff as <-. exists []. apply led_refl.
  - exact (insert_effect_ledger w e loc c ev w' HW (Hloc eq_refl) Heff).
  - destruct (remove_effect_ledger w e loc c ev w' HW (Hloc eq_refl) Heff) as (nd & A & B). exists nd. split; [exact A|now rewrite app_nil_r].
  - destruct (spawn_effect_ledger w ev loc) as [A B]. cbn zeta in A, B. rewrite Heff in A, B. exists []. split; [now rewrite app_nil_r|now rewrite !app_nil_r].
  - destruct (despawn_effect_ledger w e loc ev w' HW (Hloc eq_refl) Heff) as (nd & A & B). exists nd. split; [exact A|now rewrite app_nil_r].
Qed.

(* C13: the dropper destroys each event handed to it exactly once *)
Definition ev_entry (targeted : bool) (tag : N) (ev : evv) : list (N * N) :=
  if targeted then
    if (20 <=? tag) && (tag <? 40) then (if ctag_has_drop (tag - 20) then [(tag - 20, ev_ser ev)] else [])
    else if ttag_has_drop tag then [(200 + tag, ev_ser ev)] else []
  else if gtag_has_drop tag then [(100 + tag, ev_ser ev)] else [].

Lemma ev_drop_spec w targeted tag ev : w_drops (ev_drop w targeted tag ev) = w_drops w ++ ev_entry targeted tag ev.
Proof.
  unfold ev_drop, ev_entry, drop_cval. destruct targeted; [destruct ((20 <=? tag) && (tag <? 40)); [destruct (ctag_has_drop (tag - 20))|destruct (ttag_has_drop tag)]|destruct (gtag_has_drop tag)];
    cbn [w_drops log_drop set_drops fst]; now rewrite ?app_nil_r.
Qed.
Lemma led_ev_drop w targeted tag ev : led w (ev_drop w targeted tag ev) (ev_entry targeted tag ev) (ev_entry targeted tag ev).
Proof. split; [apply ev_drop_spec|]. rewrite (stored_same w (ev_drop w targeted tag ev)); [reflexivity|apply (r_ev_drop w_archs)|apply (r_ev_drop w_comps)]; fr. Qed.

Definition item_tag (w : world) (it : qitem) : N :=
  if qi_targeted it
  then match get_by_index (w_tev w) (qi_idx it) with Some (_, i) => e_tag i | None => 999 end
  else match get_by_index (w_gev w) (qi_idx it) with Some (_, i) => e_tag i | None => 999 end.
Lemma item_tag_reg w' w it : registries w' = registries w -> item_tag w' it = item_tag w it.
Proof. unfold registries, item_tag. intros H. injection H as -> _ -> _ _. reflexivity. Qed.

Theorem unwind_queue_spec q : forall w,
  w_drops (unwind_queue q w) = w_drops w ++ flat_map (fun it => ev_entry (qi_targeted it) (item_tag w it) (qi_ev it)) q.
Proof.
  unfold unwind_queue. induction q as [|it q IH]; intros w; cbn [fold_left flat_map]; [now rewrite app_nil_r|].
  change (if qi_targeted it then _ else _) with (item_tag w it). rewrite IH, ev_drop_spec, <- app_assoc. do 2 f_equal.
  apply flat_map_ext. intros it'. f_equal. apply item_tag_reg. apply (r_ev_drop registries); fr.
Qed.
