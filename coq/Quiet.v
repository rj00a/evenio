(* Quiet.v : no entity reservation is left pending when control is back with the caller (C03, C17).

   Quiet w : the reservation count is 0 and the cursor is where NextKeyIter starts on the current
   entity map - the state in which World::spawn / Sender::spawn promise exactly the ids that the next
   materialisation creates (ReserveW.v).

   Inside a propagation reservations ARE pending: a handler's Sender::spawn reserves an id and queues a
   Spawn event; the reservation is materialised when the next Spawn or Despawn event is applied, or by
   the unwinding path.  The invariant of the stack machine is therefore joint in state and queue:
        Quiet w  \/  some queued item is a Spawn event.
   It needs (1) the index a Sender produces for Spawn is registered as a Spawn event (Sender.v: NInv
   carries the type tag; EvLedger.v: TI relates tag and kind), (2) a Spawn event is never taken by a
   handler - in the code Spawn is an immutable event and EventMut::take does not type-check (C18); the
   model's behaviours are arbitrary functions, so this is the hypothesis [NoTakeSpawn] on [beh] -,
   (3) capacity: once the entity slot map holds 2^32-1 slots spawn_all panics half-way and nothing is
   claimed; the statements are guarded by [elen w < U32MAX] on the FINAL world (slot counts only grow). *)
From Coq Require Import List NArith Bool Lia Sorted.
Import ListNotations.
Require Import EV.Base EV.ListN EV.Access EV.Query EV.SlotMap EV.Reserve EV.HList EV.Loop EV.World EV.StorageSpec EV.SlotMapGet
  EV.AccessProofs EV.ArchProofs EV.QueryProofs EV.WorldFrame EV.Layer EV.Store EV.Register EV.Graph EV.Effects EV.Reach EV.RemoveComp EV.Member EV.Listen
  EV.ReserveW EV.Order EV.Fetch EV.NoUB EV.Sender EV.Users EV.Ledger EV.EvLedger.
Open Scope N_scope.

Definition elen (w : world) : N := N.of_nat (length (slots (w_ents w))).
Definition Quiet (w : world) : Prop := w_rcnt w = 0 /\ w_rcur w = next_key_iter (w_ents w).

Lemma Quiet_ReserveInv w : Quiet w -> reserved_ids w [].
Proof. intros [A B]. unfold reserved_ids. rewrite A, B. reflexivity. Qed.
Lemma ReserveInv_zero w : ReserveInv w -> w_rcnt w = 0 -> Quiet w.
Proof. intros [ks H] Hz. split; [exact Hz|]. rewrite Hz in H. cbn [N.to_nat predict] in H. congruence. Qed.

(* the observation that archetype moves leave alone *)
Definition eo (w : world) := (shape (w_ents w), w_rcnt w, w_rcur w).

Lemma eo_parts w' w : eo w' = eo w -> shape (w_ents w') = shape (w_ents w) /\ w_rcnt w' = w_rcnt w /\ w_rcur w' = w_rcur w.
Proof. unfold eo. intros H. repeat split; congruence. Qed.
Lemma eo_elen w' w : eo w' = eo w -> elen w' = elen w.
Proof. intros H. destruct (eo_parts _ _ H) as (Hs & _ & _). unfold elen. now rewrite (proj1 (shape_len _ _ Hs)). Qed.
Lemma eo_Quiet w' w : eo w' = eo w -> Quiet w -> Quiet w'.
Proof. intros H [A B]. destruct (eo_parts _ _ H) as (Hs & Hc & Hr). split; [congruence|]. rewrite Hr, B. symmetry. now apply shape_nki0. Qed.
Lemma eo_ReserveInv w' w : eo w' = eo w -> ReserveInv w -> ReserveInv w'.
Proof. intros H [ks Hk]. destruct (eo_parts _ _ H) as (Hs & Hc & Hr). exists ks. exact (ReserveInv_shape w w' Hs Hc Hr ks Hk). Qed.

Lemma eo_set_loc w e l : eo (res_world (set_loc w e l)) = eo w.
Proof.
  unfold set_loc. destruct (sm_get e (w_ents w)); [|reflexivity]. cbn [res_world]. unfold eo. cbn [w_ents w_rcnt w_rcur set_ents].
  f_equal. f_equal. unfold shape. now apply sview_upd_index.
Qed.

Lemma eo_drop_fold l w : eo (fold_left (fun (w' : world) '(c, v) => drop_cval w' (comp_tag w' c) v) l w) = eo w.
Proof. apply (r_drop_fold eo). fr. Qed.
Lemma eo_drop_cval w t v : eo (drop_cval w t v) = eo w. Proof. apply (r_drop_cval eo). fr. Qed.
Lemma eo_notify_remove w ai : eo (notify_remove w ai) = eo w. Proof. apply (r_notify_remove eo). fr. Qed.
Lemma eo_notify_refresh w ai : eo (notify_refresh w ai) = eo w. Proof. fr. Qed.
Lemma eo_set_archs w x : eo (set_archs w x) = eo w. Proof. reflexivity. Qed.
Lemma shape_upd (m : smap eloc) i l : shape (upd_by_index m i (fun _ => l)) = shape m.
Proof. now apply sview_upd_index. Qed.
Lemma shape_fixup m rows row : shape (fixup m rows row) = shape m.
Proof. unfold fixup. destruct (nget rows row) as [[de dv]|]; [|reflexivity]. destruct (sm_get de m); [apply shape_upd|reflexivity]. Qed.
Lemma eo_rebuilt w D A M : eo (rebuilt w D A M) = (shape M, w_rcnt w, w_rcur w).
Proof. now rewrite rebuilt_eq. Qed.
Lemma eo_move_entity w src dst nw : eo (res_world (move_entity w src dst nw)) = eo w.
Proof.
  destruct src as [sai srow]. destruct (move_entity_spec w sai srow dst nw); cbn [res_world]; try reflexivity;
    [now rewrite overwritten_eq|rewrite moved_eq|apply eo_rebuilt|unfold row_moved; rewrite eo_rebuilt]; unfold eo;
    cbn [w_ents w_rcnt w_rcur set_hs set_ents]; now rewrite ?shape_fixup, shape_upd.
Qed.
Lemma eo_traverse_insert w s c : eo (res_world (traverse_insert w s c)) = eo w.
Proof. apply (r_traverse_insert eo); fr. Qed.
Lemma eo_traverse_remove w s c : eo (res_world (traverse_remove w s c)) = eo w.
Proof. apply (r_traverse_remove eo); fr. Qed.
Lemma eo_ev_drop w t tag ev : eo (ev_drop w t tag ev) = eo w. Proof. apply (r_ev_drop eo). fr. Qed.
Lemma eo_unwind_queue q w : eo (unwind_queue q w) = eo w. Proof. apply (r_unwind_queue eo). fr. Qed.

Lemma insert_with_len {V} (f : key -> V) (m : smap V) k m' : insert_with f m = Some (k, m') ->
  (length (slots m) <= length (slots m'))%nat.
Proof.
  unfold insert_with. destruct (sget (slots m) (next_free m)) as [s|].
  - intros H. inversion H; subst. cbn [slots]. rewrite supd_upd, upd_length. lia.
  - destruct (_ =? U32MAX); [discriminate|]. intros H. inversion H; subst. cbn [slots]. rewrite app_length. lia.
Qed.
Lemma insert_with_none {V} (f : key -> V) (m : smap V) : insert_with f m = None -> N.of_nat (length (slots m)) = U32MAX.
Proof. unfold insert_with. destruct (sget _ _); [discriminate|]. destruct (_ =? U32MAX) eqn:E; [intros _; now apply N.eqb_eq|discriminate]. Qed.

Lemma spawn_all_n_elen n : forall w, elen w <= elen (res_world (spawn_all_n n w)) /\
  match spawn_all_n n w with RFail _ w' => elen w' = U32MAX | ROk _ w' => w_rcnt w' = w_rcnt w end.
Proof.
  intros w.  pose proof (spawn_all_n_rule (fun w' => elen w <= elen w' /\ w_rcnt w' = w_rcnt w)) as R. cbv beta in R.
  assert (H : forall w0 k ents', insert_with (fun _ => spawn_loc w0) (w_ents w0) = Some (k, ents') -> elen w <= elen w0 /\ w_rcnt w0 = w_rcnt w ->
    elen w <= elen (set_ents (snd (arch_spawn w0 k)) ents') /\ w_rcnt (set_ents (snd (arch_spawn w0 k)) ents') = w_rcnt w).
  { intros w0 k ents' E [A B]. apply insert_with_len in E. split; [unfold elen in *; cbn [w_ents set_ents]; lia|].
    cbn [w_rcnt set_ents]. now rewrite (r_arch_spawn w_rcnt ltac:(fr) ltac:(fr) w0 k). }
  specialize (R H n w (conj (N.le_refl _) eq_refl)). destruct (spawn_all_n n w) as [[] w'|f w']; cbn [res_world]; [exact R|].
  destruct R as (_ & [A _] & E). split; [exact A|exact (insert_with_none _ _ E)].
Qed.

(* spawn_all needs no precondition: it resets the cursor itself *)
Lemma spawn_all_Quiet w : elen w <= elen (res_world (spawn_all w)) /\ (elen (res_world (spawn_all w)) < U32MAX -> Quiet (res_world (spawn_all w))).
Proof.
  unfold spawn_all. destruct (spawn_all_n_elen (N.to_nat (w_rcnt w)) w) as [A B].
  destruct (spawn_all_n (N.to_nat (w_rcnt w)) w) as [[] w1|f w1]; cbn [rbind res_world] in *.
  - split; [exact A|]. intros _. split; reflexivity.
  - split; [exact A|]. intros H. lia.
Qed.

Lemma unwind_Quiet q w : let w' := res_world (spawn_all (unwind_queue q w)) in elen w <= elen w' /\ (elen w' < U32MAX -> Quiet w').
Proof. cbv zeta. rewrite <- (eo_elen _ _ (eo_unwind_queue q w)). apply spawn_all_Quiet. Qed.

Definition ro (w : world) := (w_ents w, w_rcnt w, w_rcur w).
Lemma ro_eo w' w : ro w' = ro w -> eo w' = eo w. Proof. unfold ro, eo. intros H. injection H as -> -> ->. reflexivity. Qed.
Lemma ro_ents w' w : ro w' = ro w -> w_ents w' = w_ents w. Proof. unfold ro. congruence. Qed.

Definition spawn_pushed (ps : list rparam) (it : qitem) : Prop :=
  qi_targeted it = false /\ sender_lookup ps false G_SPAWN = Some (Some (qi_idx it)).

(* outcome of a piece of handler code relative to the state before: the entity map is untouched and either
   the reservation state is untouched too, or a Spawn event was pushed *)
Definition hstep (ps : list rparam) (w w' : world) (sent' : list qitem) : Prop :=
  w_ents w' = w_ents w /\ (ro w' = ro w \/ exists x, In x sent' /\ spawn_pushed ps x).

Lemma reserve_ents w : w_ents (res_world (reserve w)) = w_ents w.
Proof. apply (r_reserve w_ents); fr. Qed.

Lemma ro_ev_drop w tg tag ev : ro (ev_drop w tg tag ev) = ro w. Proof. apply (r_ev_drop ro); fr. Qed.
Lemma ro_write_arch w q d ai r : ro (write_arch w q d ai r) = ro w. Proof. apply (r_write_arch ro); fr. Qed.

(* A handler changes [ro] only by reserving an id; the id goes into the Spawn event it pushes next.  Relative to the world
   [w0] and the events [sent0] it started from: the entity map is untouched, and unless it failed either the
   reservation state is untouched too or a Spawn event is among the events pushed *)
Section ResP.
Variables (S : bool -> N -> N -> Prop) (w0 : world) (sent0 : list qitem).
Definition resP (w : world) (s : list qitem) (fl : option fail) : Prop :=
  w_ents w = w_ents w0 /\ (forall x, In x sent0 -> In x s) /\
  (fl = None -> ro w = ro w0 \/ exists x, In x s /\ qi_targeted x = false /\ S false G_SPAWN (qi_idx x)).
Lemma resP_ro w w' s fl : ro w' = ro w -> resP w s fl -> resP w' s fl.
Proof. intros H (A & B & C). split; [rewrite (ro_ents _ _ H); exact A|]. split; [exact B|]. intros Hn. destruct (C Hn) as [C1|C1]; [left; congruence|now right]. Qed.
Lemma resP_fail w w' s f : w_ents w' = w_ents w -> resP w s None -> resP w' s (Some f).
Proof. intros H (A & B & _). split; [congruence|]. split; [exact B|discriminate]. Qed.
Lemma resP_walks : walks resP S (fun _ => True).
Proof.
  split; [split|..]; try (intros; eapply resP_ro; [|eassumption]; first [reflexivity|apply ro_write_arch]).
  - intros w s tg tag idx target ev _ _ (A & B & C). split; [exact A|]. split; [intros y Hy; apply in_or_app; auto|].
    intros _. destruct (C eq_refl) as [C1|(y & Hy & Hp)]; [now left|right; exists y; split; [apply in_or_app; now left|exact Hp]].
  - intros w s id w1 idx HS Er (A & B & _). pose proof (reserve_ents w) as He. rewrite Er in He. cbn [res_world] in He. split; [congruence|].
    split; [intros y Hy; apply in_or_app; auto|]. intros _. right. eexists. split; [apply in_or_app; right; now left|]. split; [reflexivity|exact HS].
  - intros w s f _. now apply resP_fail.
  - intros w s f H. split; [intros; eapply resP_ro; [apply ro_ev_drop|exact H]|]. destruct H as (A & B & _). split; [rewrite reserve_ents; exact A|]. split; [exact B|discriminate].
  - exact (fun _ => I).
Qed.
End ResP.

Lemma run_actions_res acts : forall ps t fresh sent w,
  let r := run_actions acts ps t fresh sent w in
  w_ents (snd (fst r)) = w_ents w /\ (forall x, In x sent -> In x (fst (fst r))) /\
  (snd r = None -> ro (snd (fst r)) = ro w \/ exists x, In x (fst (fst r)) /\ spawn_pushed ps x).
Proof.
  intros ps t fresh sent w.
  apply (body_rule _ _ _ (resP_walks (fun tg tag idx => sender_lookup ps tg tag = Some (Some idx)) w sent) ps (fun _ _ _ H => H) acts t fresh []).
  split; [reflexivity|split; [auto|now left]].
Qed.

(* a predicate that depends on [ro] alone and is kept by a reservation *)
Lemma ro_swalks (P : world -> Prop) : (forall w w', ro w' = ro w -> P w -> P w') -> (forall w, P w -> P (res_world (reserve w))) -> swalks P.
Proof. intros P_ro P_reserve. split; [intros w x; now apply P_ro|intros w q d ai r; apply P_ro, ro_write_arch|exact P_reserve|intros w tg tag ev; apply P_ro, ro_ev_drop]. Qed.

Definition spawn_item (w : world) (it : qitem) : Prop :=
  qi_targeted it = false /\ exists k info, get_by_index (w_gev w) (qi_idx it) = Some (k, info) /\ e_kind info = KSpawn.

(* the kind of every registered global event is the one its type tag determines (first half of EvLedger.TI) *)
Definition TG (w : world) : Prop := forall i k info, get_by_index (w_gev w) i = Some (k, info) -> e_kind info = gkind (e_tag info).
Lemma TI_TG w : TI w -> TG w. Proof. intros [T _]. exact T. Qed.
Lemma TG_gev w' w : w_gev w' = w_gev w -> TG w -> TG w'. Proof. unfold TG. intros ->. auto. Qed.
Lemma TG_reg w' w : registries w' = registries w -> TG w -> TG w'.
Proof. unfold registries. intros H. apply TG_gev. congruence. Qed.

Lemma sendable_spawn_item w x : TG w -> qi_targeted x = false -> sendable w false G_SPAWN (qi_idx x) -> spawn_item w x.
Proof.
  intros T1 Ht [[Hg _] Htag]. destruct (get_by_index (w_gev w) (qi_idx x)) as [[k info]|] eqn:E; [|congruence].
  split; [exact Ht|]. exists k, info. split; [exact E|]. rewrite (T1 _ _ _ E), (Htag _ _ E). reflexivity.
Qed.
Lemma pushed_spawn_item w h x : sender_ok w h -> TG w -> spawn_pushed (h_params h) x -> spawn_item w x.
Proof. intros Hs T1 [Ht Hl]. exact (sendable_spawn_item w x T1 Ht (sender_ok_sends w h Hs _ _ _ Hl)). Qed.
Lemma spawn_item_reg w w' x : registries w' = registries w -> spawn_item w x -> spawn_item w' x.
Proof. unfold registries. intros H [A B]. injection H as E _ _ _ _. split; [exact A|]. now rewrite E. Qed.

(* a Spawn event is never taken: Spawn is an immutable event (EventMut::take needs a mutable one) *)
Definition NoTakeSpawn (beh : hinfo -> logent -> N -> script) : Prop :=
  forall h le n, lg_targeted le = false -> lg_tag le = G_SPAWN -> s_take (beh h le n) = false.

Section QStep.
Variable beh : hinfo -> logent -> N -> script.
Hypothesis Hnt : NoTakeSpawn beh.
Notation ZL := (ZI_layer beh).

Lemma ZJ w : ZI w -> lJ ZL w.
Proof. exact (proj2 (ZI_layer_J beh w)). Qed.
Lemma JZ w : lJ ZL w -> ZI w.
Proof. exact (proj1 (ZI_layer_J beh w)). Qed.

Lemma no_take_spawn it tag : took beh it tag -> qi_targeted it = false -> tag = G_SPAWN -> False.
Proof. intros (h & le & n & E1 & E2 & E3) Ht Hg. rewrite (Hnt h le n) in E3; congruence. Qed.

Lemma run_handler_res w h it tag loc :
  let r := run_handler beh w h it tag loc in
  w_ents (snd r) = w_ents w /\
  (hr_fail (fst r) = None -> ro (snd r) = ro w \/ exists x, In x (hr_sent (fst r)) /\ spawn_pushed (h_params h) x) /\
  (qi_targeted it = false -> tag = G_SPAWN -> hr_taken (fst r) = false).
Proof.
  cbn zeta.
  destruct (handler_rule _ _ _ (resP_walks (fun tg tag idx => sender_lookup (h_params h) tg tag = Some (Some idx)) w []) beh w h it tag loc []
              (fun _ _ _ H => H) (fun _ _ => I)) as (A & _ & C); [split; [reflexivity|split; [auto|now left]]|].
  split; [exact A|]. split; [exact C|]. intros Ht Hg. destruct (hr_taken _) eqn:Etk; [|reflexivity].
  destruct (no_take_spawn it tag (proj2 (proj2 (proj2 (run_handler_ev beh w h it tag loc)) Etk)) Ht Hg).
Qed.

Lemma run_handlers_res w0 hl : NInv w0 -> TG w0 -> forall w it tag loc sent, registries w = registries w0 -> w_hs w = w_hs w0 ->
  let r := run_handlers beh hl w it tag loc sent in
  let w' := fst (fst (fst (fst r))) in let sent' := snd (fst (fst r)) in
  w_ents w' = w_ents w /\ (forall x, In x sent -> In x sent') /\
  (snd r = None -> ro w' = ro w \/ exists x, In x sent' /\ spawn_item w0 x) /\
  (qi_targeted it = false -> tag = G_SPAWN -> snd (fst r) = false).
Proof.
  intros HN HT w it tag loc sent _ Hh. cbn zeta.
  pose proof (handlers_rule _ _ _ (resP_walks (sendable w0) w sent) beh hl w it tag loc sent (NInv_ready w0 w hl loc HN Hh)
                ltac:(split; [reflexivity|split; [auto|now left]])) as H.
  pose proof (run_handlers_ev beh hl w it tag loc sent) as Hev.
  destruct (run_handlers beh hl w it tag loc sent) as [[[[w1 ev] sent'] taken] fl]. cbn [fst snd]. destruct H as (w' & H & _ & ->). destruct Hev as (_ & _ & Hev).
  assert (H1 : resP (sendable w0) w sent (if taken then ev_drop w' (qi_targeted it) tag ev else w') sent' fl) by (destruct taken; [eapply resP_ro; [apply ro_ev_drop|]|]; exact H).
  destruct H1 as (A & B & C). split; [exact A|]. split; [exact B|]. split.
  - intros Hn. destruct (C Hn) as [C1|(x & Hx & Ht & Hs)]; [now left|right; exists x; split; [exact Hx|now apply sendable_spawn_item]].
  - intros Ht Hg. destruct taken; [|reflexivity]. destruct (no_take_spawn it tag (proj2 (Hev eq_refl)) Ht Hg).
Qed.

Definition J (w : world) (q : list qitem) : Prop := Quiet w \/ exists it, In it q /\ spawn_item w it.

Lemma sm_remove_len {V} k (m : smap V) v m' : sm_remove k m = Some (v, m') -> length (slots m') = length (slots m).
Proof.
  unfold sm_remove. destruct (sget (slots m) (fst k)) as [s|]; [|discriminate]. destruct (gen s =? snd k); [|discriminate].
  destruct (val s); [|discriminate]. destruct (wrap_succ (gen s) =? 0); intros H; inversion H; subst; cbn [slots]; now rewrite supd_upd, upd_length.
Qed.

(* remove_entity takes the entity stored at the row out of the entity map, or fails before it has touched the map;
   everything else it does leaves [eo] alone *)
Lemma remove_entity_eo (P : world -> Prop) w ai row :
  (forall w1 w2, eo w2 = eo w1 -> P w1 -> P w2) ->
  (forall a e vals v m', slab_get (w_archs w) ai = Some a -> nget (a_rows a) row = Some (e, vals) ->
     sm_remove e (w_ents w) = Some (v, m') -> P (set_ents w m')) ->
  P w -> P (res_world (remove_entity w (ai, row))).
Proof.
  intros P_eo P_rm HP.
  destruct (remove_entity_spec w ai row) as [a e vals v m' Ha Hr Hm _| | |a e vals Ha Hr Hm|a e vals v m' Ha Hr Hm _]; cbn [res_world];
    try exact HP; [rewrite removed_eq; apply (P_eo (set_ents w m')); [|eauto]|apply (P_eo w); [|exact HP]|apply (P_eo (set_ents w m')); [|eauto]];
    try apply eo_rebuilt. unfold eo; cbn [w_ents w_rcnt w_rcur set_hs set_ents set_archs set_drops]. now rewrite shape_fixup.
Qed.

Lemma remove_entity_el w loc : elen (res_world (remove_entity w loc)) = elen w /\ w_rcnt (res_world (remove_entity w loc)) = w_rcnt w.
Proof.
  destruct loc as [ai row]. apply (remove_entity_eo (fun w' => elen w' = elen w /\ w_rcnt w' = w_rcnt w)); [| |now split].
  - intros w1 w2 H [<- <-]. split; [now apply eo_elen|exact (proj1 (proj2 (eo_parts _ _ H)))].
  - intros a e vals v m' _ _ Er. split; [|reflexivity]. unfold elen. cbn [w_ents set_ents]. now rewrite (sm_remove_len _ _ _ _ Er).
Qed.

Lemma gkind_spawn tag : gkind tag = KSpawn -> tag = G_SPAWN.
Proof. unfold gkind. destruct (tag =? G_SPAWN) eqn:E; [intros _; now apply N.eqb_eq|discriminate]. Qed.

Lemma eo_builtin_effect kind ev loc w :
  match kind with KSpawn | KDespawn => True | _ => eo (res_world (builtin_effect kind ev loc w)) = eo w end.
Proof.
  destruct kind as [|c|c| |]; cbn [builtin_effect]; try exact I; [reflexivity| |];
    (apply rbind_pres; [|intros d w2 H2; rewrite eo_move_entity; exact H2]); [apply eo_traverse_insert|apply eo_traverse_remove].
Qed.

Lemma builtin_effect_Q kind ev loc w1 : 
  let r := builtin_effect kind ev loc w1 in
  elen w1 <= elen (res_world r) /\
  (elen (res_world r) < U32MAX -> match r with RFail _ _ => True | ROk _ w3 =>
      match kind with KSpawn | KDespawn => Quiet w3 | _ => eo w3 = eo w1 end end).
Proof.
  cbn zeta. pose proof (eo_builtin_effect kind ev loc w1) as He.
  destruct kind as [|c|c| |]; try (rewrite (eo_elen _ _ He); split; [lia|]; intros _; destruct (builtin_effect _ ev loc w1); [exact He|exact I]);
    cbn [builtin_effect]; destruct (spawn_all_Quiet w1) as [A B].
  - split; [exact A|]. intros H. specialize (B H). destruct (spawn_all w1); [exact B|exact I].
  - destruct (spawn_all w1) as [[] w2|f w2]; cbn [rbind res_world] in *; [|split; [exact A|auto]].
    destruct (remove_entity_el w2 loc) as [E1 E2]. destruct (remove_entity w2 loc) as [[] w3|f w3]; cbn [rbind res_world] in *.
    + unfold refresh_cursor. assert (Ee : elen (set_res w3 (next_key_iter (w_ents w3)) (w_rcnt w3)) = elen w3) by reflexivity. rewrite Ee, E1.
      split; [exact A|]. intros H. destruct (B H) as [Q1 _]. split; cbn [w_rcnt w_rcur w_ents set_res]; [congruence|reflexivity].
    + rewrite E1. split; [exact A|auto].
Qed.

Lemma deliver_one_elen it w : elen w <= elen (snd (fst (deliver_one beh it w))).
Proof.
  apply (sw_deliver_one beh (fun w' => elen w <= elen w')) with (R := fun w' _ => elen w <= elen w'); [|auto| |lia].
  - apply ro_swalks; [intros w1 w2 H; rewrite (eo_elen _ _ (ro_eo _ _ H)); auto|]. intros w1. unfold elen. now rewrite reserve_ents.
  - intros k info ev loc w1 _ _ _ H _. pose proof (proj1 (builtin_effect_Q (e_kind info) ev loc w1)). lia.
Qed.

Lemma deliver_one_Q it w : ZI w -> TG w ->
  let r := deliver_one beh it w in let w' := snd (fst r) in
  elen w <= elen w' /\ (elen w' < U32MAX -> snd r = None -> forall rest, J w (rest ++ [it]) -> J w' (rest ++ fst (fst r))).
Proof.
  intros HZ T1. cbn zeta. split; [apply deliver_one_elen|]. destruct HZ as [_ (_ & _ & HN & _)].
  (* after the handlers either the reservation state is as before, or a Spawn event is among the events pushed; the item
     itself stays queued only as an applied Spawn *)
  assert (Hcom : forall w1 s w3, resP (sendable w) w [] w1 s None -> quiet w w1 -> eo w3 = eo w1 -> registries w3 = registries w1 -> ~ spawn_item w it ->
            forall rest, J w (rest ++ [it]) -> J w3 (rest ++ s)).
  { intros w1 s w3 (_ & _ & C) [_ Hreg] He Hr Hns rest HJ. destruct (C eq_refl) as [C1|(x & Hx & Ht & Hs)].
    - destruct HJ as [Q|(x & Hx & Hs)]; [left; eapply eo_Quiet; [|exact Q]; rewrite He; now apply ro_eo|]. right. exists x. split; [|eapply spawn_item_reg; [|exact Hs]; congruence].
      apply in_app_or in Hx as [Hx|[<-|[]]]; [apply in_or_app; now left|contradiction].
    - right. exists x. split; [apply in_or_app; now right|eapply spawn_item_reg; [|apply sendable_spawn_item; eassumption]; congruence]. }
  (* the registered kind of a Spawn item *)
  assert (Hsp : forall k info, item_reg w it = Some (k, info) -> spawn_item w it -> e_tag info = G_SPAWN /\ e_kind info = KSpawn /\ qi_targeted it = false).
  { intros k info Hr (Ht & k0 & i0 & Hg0 & Hk0). unfold item_reg in Hr. rewrite Ht in Hr. rewrite Hr in Hg0. inversion Hg0; subst k0 i0.
    split; [|split; [exact Hk0|exact Ht]]. apply gkind_spawn. rewrite <- (T1 _ _ _ Hr). exact Hk0. }
  apply (deliver_one_rule beh _ _ _ (resP_walks (sendable w) w []));
    [intros; now apply NInv_ready|split; [reflexivity|split; [auto|now left]]|intros s _ X; discriminate| |]; cbn [fst snd].
  - intros k info w1 ev s fl Hr H K _ _ Hk _ -> rest. apply (Hcom w1); [exact H|exact K|apply eo_ev_drop|apply registries_ev_drop|].
    intros Hs. destruct (Hsp k info Hr Hs) as (E1 & E2 & E3). destruct (Hk eq_refl) as [X|[X|[X _]]]; [congruence|exact (no_take_spawn it _ X E3 E1)|congruence].
  - intros k info loc w1 ev s Hr _ H K _ _ Hk Hl Hf. destruct (builtin_effect_Q (e_kind info) ev loc w1) as [_ HB]. specialize (HB Hl).
    assert (Hreg : registries (res_world (builtin_effect (e_kind info) ev loc w1)) = registries w1) by (apply (r_builtin_effect registries); fr).
    destruct (builtin_effect (e_kind info) ev loc w1) as [[] w3|f w3]; [|discriminate]. cbn [res_world] in *.
    destruct (e_kind info) eqn:Ek; try (intros rest _; left; exact HB); try (apply (Hcom w1); auto; intros Hs; destruct (Hsp k info Hr Hs) as (_ & E2 & _); congruence).
Qed.

Lemma J_rev w rest sent : J w (rest ++ sent) -> J w (rest ++ rev sent).
Proof.
  intros [Q|(x & Hx & Hs)]; [now left|right]. exists x. split; [|exact Hs].
  apply in_app_or in Hx as [Hx|Hx]; apply in_or_app; [now left|right; now apply in_rev in Hx].
Qed.

Lemma deliver_one_TG it w : TG w -> TG (snd (fst (deliver_one beh it w))).
Proof. apply TG_reg. apply deliver_one_keeps_registries. Qed.

Theorem flush_loop_Q : forall n q (st : wst) acc tr st' oc,
  Loop.flush wst qitem (run_w beh) unwind_w n q st acc = Some (tr, st', oc) ->
  ZI (fst st) -> ~ ubf (snd st) -> TG (fst st) -> (forall x, In x q -> item_ok (fst st) x) ->
  elen (fst st) <= elen (fst st') /\ (elen (fst st') < U32MAX -> (oc = Aborted -> Quiet (fst st')) /\ (J (fst st) q -> Quiet (fst st'))).
Proof.
  intros n q st acc tr st' oc H HZ _ HT HQ.
  set (Inv := fun (w : world) (q0 _ : list qitem) => ZI w /\ TG w /\ (forall x, In x q0 -> item_ok w x) /\
                elen (fst st) <= elen w /\ (elen w < U32MAX -> J (fst st) q -> J w q0)).
  set (Out := fun (w : world) (_ : option fail) (_ : list qitem) => elen (fst st) <= elen w /\ (elen w < U32MAX -> Quiet w)).
  assert (HF : match oc with Finished => Inv (fst st') [] tr | Aborted => Out (fst st') (snd st') tr end).
  { refine (flush_w_exit beh Inv Out _ n q st acc tr st' oc H (conj HZ (conj HT (conj HQ (conj (N.le_refl _) (fun _ X => X)))))).
    intros rest e w tr0 (Z & T & Q & El & HJ).
    pose proof (deliver_one_ZI beh e w Z) as Z1. pose proof (deliver_one_Q e w Z T) as HD. cbn zeta in HD.
    pose proof (deliver_one_keeps_registries beh e w) as Hr.
    assert (Hn1 : ~ ubf (snd (deliver_one beh e w))).
    { destruct Z as [[HDI HS] _]. apply (deliver_one_no_ub beh e w HDI HS). specialize (Q e (in_elt e rest [])).
      unfold item_ok, greg, treg in Q. destruct (qi_targeted e); exact Q. }
    pose proof (fun x => deliver_one_sent beh e w x (proj1 (proj2 (proj2 (proj2 Z))))) as Hsent.
    destruct (deliver_one beh e w) as [[sent w2] [[k|u]|]]; cbn [fst snd] in *; destruct HD as [El1 HD]; [|destruct (Hn1 I)|].
    - destruct (unwind_Quiet (rest ++ sent) w2) as [A B]. split; [lia|exact B].
    - split; [exact Z1|]. split; [eapply TG_reg; eauto|]. split; [|split; [lia|]].
      + intros x Hin. apply (item_ok_reg w); [exact Hr|]. apply in_app_or in Hin as [Hin|Hin]; [apply Q, in_or_app; now left|apply Hsent; now apply in_rev].
      + intros Hl HJ0. apply J_rev. apply HD; [exact Hl|reflexivity|]. apply HJ; [lia|exact HJ0]. }
  destruct oc.
  - destruct HF as (_ & _ & _ & El & HJ). split; [exact El|]. intros Hl. split; [discriminate|]. intros HJ0.
    destruct (HJ Hl HJ0) as [Qu|(x & [] & _)]. exact Qu.
  - destruct HF as [El HQu]. split; [exact El|]. intros Hl. split; intros _; exact (HQu Hl).
Qed.

(* a whole flush: slot counts only grow; if the world was quiet, or a Spawn event is among the queued
   ones, it is quiet afterwards (FPanic 8 = the model's own delivery budget ran out: nothing is claimed) *)
Theorem flush_Q q w : ZI w -> TG w -> (forall x, In x q -> item_ok w x) ->
  elen w <= elen (res_world (flush beh q w)) /\
  (elen (res_world (flush beh q w)) < U32MAX -> res_fail (flush beh q w) <> Some (FPanic 8) ->
     (res_fail (flush beh q w) <> None -> Quiet (res_world (flush beh q w))) /\ (J w q -> Quiet (res_world (flush beh q w)))).
Proof.
  intros HZ HT HQ.
  apply (flush_cases beh q w (fun r => elen w <= elen (res_world r) /\ (elen (res_world r) < U32MAX -> res_fail r <> Some (FPanic 8) ->
           (res_fail r <> None -> Quiet (res_world r)) /\ (J w q -> Quiet (res_world r))))); cbn [res_world res_fail].
  - split; [lia|]. intros _ X. now contradiction X.
  - intros tr w1 fl E. destruct (flush_loop_Q _ _ _ _ _ _ _ E HZ ltac:(cbn; tauto) HT HQ) as [A B]. cbn [fst] in A, B.
    assert (Ee : eo (set_resets w1 (w_resets w1 + 1)) = eo w1) by reflexivity. rewrite (eo_elen _ _ Ee). split; [exact A|].
    intros Hl _. split; [intros X; now contradiction X|]. intros HJ. eapply eo_Quiet; [exact Ee|]. now apply (proj2 (B Hl)).
  - intros tr w1 f E. destruct (flush_loop_Q _ _ _ _ _ _ _ E HZ ltac:(cbn; tauto) HT HQ) as [A B]. cbn [fst] in A, B.
    split; [exact A|]. intros Hl _. destruct (B Hl) as [B1 B2]. split; [intros _; now apply B1|exact B2].
Qed.

(* the call did not end with the model's delivery budget (8) or a registry's capacity (5) exhausted *)
Definition nofuel {A} (r : res A) : Prop := res_fail r <> Some (FPanic 8) /\ res_fail r <> Some (FPanic 5).
Definition KR {A} (w : world) (r : res A) : Prop :=
  elen w <= elen (res_world r) /\ TG (res_world r) /\ (elen (res_world r) < U32MAX -> nofuel r -> Quiet w -> Quiet (res_world r)).

Lemma KR_ok {A} (a : A) w w' : eo w' = eo w -> TG w' -> KR w (ROk a w').
Proof. intros H HT. split; cbn [res_world]; [rewrite (eo_elen _ _ H); lia|]. split; [exact HT|]. intros _ _. now apply eo_Quiet. Qed.
Lemma KR_fail {A} f w w' : eo w' = eo w -> TG w' -> KR w (@RFail A f w').
Proof. intros H HT. split; cbn [res_world]; [rewrite (eo_elen _ _ H); lia|]. split; [exact HT|]. intros _ _. now apply eo_Quiet. Qed.
Lemma rbind_KR {A B} (r : res A) (f : A -> world -> res B) w :
  KR w r -> (forall a w1, r = ROk a w1 -> TG w1 -> KR w1 (f a w1)) -> KR w (rbind r f).
Proof.
  intros (A1 & A2 & A3) Hf. destruct r as [a w1|e w1]; cbn [rbind res_world] in *; [|split; [exact A1|split; [exact A2|exact A3]]].
  destruct (Hf a w1 eq_refl A2) as (B1 & B2 & B3). split; [lia|]. split; [exact B2|]. intros Hl Hn Hq. apply B3; [exact Hl|exact Hn|]. apply A3; [lia|split; discriminate|exact Hq].
Qed.
Lemma rbind_KT {A B} (r : res A) (f : A -> world -> res B) w w0 Q :
  KR w r -> tri beh ZL w0 r Q -> (forall a w1, ZI w1 -> TG w1 -> Q a w1 -> KR w1 (f a w1)) -> KR w (rbind r f).
Proof.
  intros HK HT Hf. eapply rbind_KR; [exact HK|]. intros a w1 -> T1. destruct HT as (J1 & _ & Q1).
  exact (Hf a w1 (JZ w1 J1) T1 Q1).
Qed.
Lemma rbind_KK {A B} (r : res A) (f : A -> world -> res B) w :
  KR w r -> keeps beh ZL r -> (forall a w1, ZI w1 -> TG w1 -> KR w1 (f a w1)) -> KR w (rbind r f).
Proof.
  intros HK [J1 _] Hf. eapply rbind_KR; [exact HK|]. intros a w1 -> T1. exact (Hf a w1 (JZ w1 J1) T1).
Qed.
Lemma KR_seq {A B} (a : A) w w1 (r : res B) : KR w (ROk a w1) -> KR w1 r -> KR w r.
Proof. intros H1 H2. change r with (rbind (ROk a w1) (fun _ _ => r)). eapply rbind_KR; [exact H1|]. intros a0 w0 E _. inversion E; subst. exact H2. Qed.
Lemma KR_pre {A} w0 w (r : res A) : eo w = eo w0 -> KR w r -> KR w0 r.
Proof. intros H (A1 & A2 & A3). split; [rewrite <- (eo_elen _ _ H); exact A1|]. split; [exact A2|]. intros Hl Hn Hq. apply A3; auto. eapply eo_Quiet; eauto. Qed.
Lemma KR_post_fail {A B} w e w1 w1' : KR w (@RFail A e w1) -> eo w1' = eo w1 -> w_gev w1' = w_gev w1 -> KR w (@RFail B e w1').
Proof.
  intros (A1 & A2 & A3) He Hg. unfold KR. cbn [res_world] in *. split; [rewrite (eo_elen _ _ He); exact A1|]. split; [eapply TG_gev; eauto|].
  intros Hl Hn Hq. eapply eo_Quiet; [exact He|]. apply A3; [rewrite <- (eo_elen _ _ He); exact Hl|exact Hn|exact Hq].
Qed.
Lemma KR_map {A B} w (r : res A) (g : A -> B) : KR w r -> KR w (rbind r (fun a w1 => ROk (g a) w1)).
Proof. intros H. eapply rbind_KR; [exact H|]. intros a w1 _ HT. now apply KR_ok. Qed.

Lemma flush_KR q w : ZI w -> TG w -> (forall x, In x q -> item_ok w x) -> KR w (flush beh q w).
Proof.
  intros HZ HT HQ. destruct (flush_Q q w HZ HT HQ) as [A B]. split; [exact A|]. split; [eapply TG_reg; [apply registries_flush|exact HT]|].
  intros Hl Hn Hq. apply (B Hl (proj1 Hn)). now left.
Qed.
Lemma flush_KR_spawn q w : ZI w -> TG w -> (forall x, In x q -> item_ok w x) -> (exists it, In it q /\ spawn_item w it) ->
  elen w <= elen (res_world (flush beh q w)) /\ TG (res_world (flush beh q w)) /\
  (elen (res_world (flush beh q w)) < U32MAX -> nofuel (flush beh q w) -> Quiet (res_world (flush beh q w))).
Proof.
  intros HZ HT HQ Hs. destruct (flush_Q q w HZ HT HQ) as [A B]. split; [exact A|]. split; [eapply TG_reg; [apply registries_flush|exact HT]|].
  intros Hl Hn. apply (B Hl (proj1 Hn)). now right.
Qed.
Lemma gev_entry_TG w tag k m : TG w -> insert_with (fun _ => mkE tag (gkind tag)) (w_gev w) = Some (k, m) -> TG (gev_entry_world w tag k m).
Proof.
  intros HT Ei i k' info Hg. cbn [gev_entry_world w_gev set_glists set_hreg set_gev] in Hg.
  destruct (gbi_insert _ _ _ _ _ _ _ Ei Hg) as [->|Hold]; [reflexivity|eauto].
Qed.

Lemma gev_KR fuel : forall tag w, ZI w -> TG w ->
  KR w (add_global_event beh fuel tag w) /\ forall ev, KR w (send_global beh fuel tag ev w).
Proof.
  induction fuel as [|f IH]; intros tag w HZ HT; [split; [|intros ev]; now apply KR_fail|].
  assert (Hadd : KR w (add_global_event beh (S f) tag w)).
  { rewrite add_global_event_unfold. destruct (alookup tag (w_gby w)) eqn:El; [now apply KR_ok|].
    destruct (insert_with (fun _ => mkE tag (gkind tag)) (w_gev w)) as [[k m]|] eqn:Ei; [|now apply KR_fail].
    pose proof (place_J beh ZL _ _ _ (p_gev_entry w tag k m El Ei) (ZJ w HZ)) as J2.
    apply (KR_pre w (gev_entry_world w tag k m)); [reflexivity|]. apply KR_map.
    exact (proj2 (IH G_ADDGE _ (JZ _ J2) (gev_entry_TG w tag k m HT Ei)) _). }
  split; [exact Hadd|]. intros ev. rewrite send_global_unfold. destruct (IH tag w HZ HT) as [Ka _].
  pose proof (proj1 (gev_tri beh ZL f tag w (ZJ w HZ))) as Ht.
  destruct (add_global_event beh f tag w) as [k w1|e w1]; cbn [res_world] in *.
  - destruct Ht as (J1 & _ & R1). apply JZ in J1. assert (HT1 : TG w1) by exact (proj1 (proj2 Ka)).
    assert (HZ2 : ZI (if 10 <? tag then note w1 tag (ev_id ev) else w1)) by (destruct (10 <? tag); exact J1).
    assert (Hr : registries (if 10 <? tag then note w1 tag (ev_id ev) else w1) = registries w1) by (destruct (10 <? tag); reflexivity).
    assert (He : eo (if 10 <? tag then note w1 tag (ev_id ev) else w1) = eo w1) by (destruct (10 <? tag); reflexivity).
    eapply KR_seq; [exact Ka|]. apply (KR_pre w1 _ _ He). apply flush_KR; [exact HZ2|eapply TG_reg; eauto|].
    intros x [<-|[]]. apply (item_ok_reg w1); [exact Hr|exact (proj1 (gby_known w1 tag k (proj2 J1) R1))].
  - eapply KR_post_fail; [exact Ka|apply eo_ev_drop|apply (r_ev_drop w_gev); fr].
Qed.
Lemma send_global_KR tag ev w : ZI w -> TG w -> KR w (send_global beh RFUEL tag ev w).
Proof. intros HZ HT. exact (proj2 (gev_KR RFUEL tag w HZ HT) ev). Qed.
Lemma add_global_event_KR tag w : ZI w -> TG w -> KR w (add_global_event beh RFUEL tag w).
Proof. intros HZ HT. exact (proj1 (gev_KR RFUEL tag w HZ HT)). Qed.

Lemma add_component_KR tag w : ZI w -> TG w -> KR w (add_component beh tag w).
Proof.
  intros HZ HT. unfold add_component. destruct (alookup tag (w_cby w)) as [k0|] eqn:El; [now apply KR_ok|].
  destruct (insert_with (fun _ => mkC tag [] [] []) (w_comps w)) as [[k m]|] eqn:Ei; [|now apply KR_fail].
  pose proof (place_J beh ZL _ _ _ (p_comp_entry w tag k m El Ei) (ZJ w HZ)) as J1.
  apply (KR_pre w (comp_entry_world w tag k m)); [reflexivity|]. apply KR_map. apply send_global_KR; [exact (JZ _ J1)|exact HT].
Qed.

Lemma tev_stage1_KR tag w : ZI w -> TG w -> KR w (tev_stage1 beh tag w).
Proof.
  intros HZ HT. unfold tev_stage1.
  destruct ((20 <=? tag) && (tag <? 40)); [apply KR_map; now apply add_component_KR|].
  destruct ((40 <=? tag) && (tag <? 60)); [apply KR_map; now apply add_component_KR|].
  destruct (tag =? T_DESPAWN); now apply KR_ok.
Qed.

Lemma add_targeted_event_KR tag w : ZI w -> TG w -> KR w (add_targeted_event beh tag w).
Proof.
  intros HZ HT. rewrite add_targeted_event_unfold.
  eapply rbind_KT; [now apply tev_stage1_KR|exact (tev_stage1_tri beh ZL tag w (ZJ w HZ))|]. intros kind w0 HZ0 HT0 [K0 T0].
  destruct (alookup tag (w_tby w0)) as [k0|] eqn:El; [now apply KR_ok|].
  destruct (insert_with (fun _ => mkE tag kind) (w_tev w0)) as [[k m]|] eqn:Ei; [|now apply KR_fail].
  pose proof (place_J beh ZL _ _ _ (p_tev_entry w0 tag kind k m K0 T0 El Ei) (ZJ w0 HZ0) : lJ ZL (tev_entry_world w0 tag kind k m)) as J1.
  assert (Eg : w_gev (tev_entry_world w0 tag kind k m) = w_gev w0) by (unfold tev_entry_world; destruct kind; reflexivity).
  assert (Ee : eo (tev_entry_world w0 tag kind k m) = eo w0) by (unfold tev_entry_world; destruct kind; reflexivity).
  apply (KR_pre w0 _ _ Ee). apply KR_map. apply send_global_KR; [exact (JZ _ J1)|eapply TG_gev; eauto].
Qed.

Lemma send_to_KR tag target ev w : ZI w -> TG w -> KR w (send_to beh tag target ev w).
Proof.
  intros HZ HT. unfold send_to. pose proof (add_targeted_event_KR tag w HZ HT) as Ka. pose proof (add_targeted_event_tri beh ZL tag w (ZJ w HZ)) as Ht.
  destruct (add_targeted_event beh tag w) as [k w1|e w1]; cbn [res_world] in *.
  - destruct Ht as (J1 & _ & R1). eapply KR_seq; [exact Ka|]. apply flush_KR; [exact (JZ w1 J1)|exact (proj1 (proj2 Ka))|].
    intros x [<-|[]]. exact (proj1 (tby_known w1 tag k (proj2 (JZ w1 J1)) R1)).
  - eapply KR_post_fail; [exact Ka|apply eo_ev_drop|apply (r_ev_drop w_gev); fr].
Qed.

Lemma zi_of {A} (r : res A) post a w1 : ZOK r post -> r = ROk a w1 -> ZI w1 /\ post a w1.
Proof. intros (Z & _ & P) ->. split; [exact Z|exact P]. Qed.

(* a call that is cut short by a panic (not by exhaustion) has gone through the unwinding path, which
   materialises every pending reservation - whatever was pending before the call *)
Definition FQ {A} (r : res A) : Prop :=
  elen (res_world r) < U32MAX -> forall f, res_fail r = Some f -> f <> FPanic 8 -> f <> FPanic 5 -> Quiet (res_world r).

Lemma flush_FQ q w : ZI w -> TG w -> (forall x, In x q -> item_ok w x) -> FQ (flush beh q w).
Proof.
  intros HZ HT HQ Hl f Hf H8 _. destruct (flush_Q q w HZ HT HQ) as [_ B].
  assert (Hn8 : res_fail (flush beh q w) <> Some (FPanic 8)) by (rewrite Hf; congruence).
  destruct (B Hl Hn8) as [B1 _]. apply B1. rewrite Hf. discriminate.
Qed.

Lemma gev_FQ fuel : forall tag w, ZI w -> TG w ->
  FQ (add_global_event beh fuel tag w) /\ forall ev, FQ (send_global beh fuel tag ev w).
Proof.
  induction fuel as [|f IH]; intros tag w HZ HT.
  { split; [|intros ev]; intros _ f0 Hf H8; cbn [add_global_event send_global res_fail] in Hf; congruence. }
  assert (Hadd : FQ (add_global_event beh (S f) tag w)).
  { rewrite add_global_event_unfold. destruct (alookup tag (w_gby w)) eqn:El; [intros _ f0 Hf; discriminate|].
    destruct (insert_with (fun _ => mkE tag (gkind tag)) (w_gev w)) as [[k m]|] eqn:Ei; [|intros _ f0 Hf _ H5; cbn [res_fail] in Hf; congruence].
    pose proof (place_J beh ZL _ _ _ (p_gev_entry w tag k m El Ei) (ZJ w HZ)) as J2.
    pose proof (proj2 (IH G_ADDGE _ (JZ _ J2) (gev_entry_TG w tag k m HT Ei)) (mkEv 0 0 k)) as Hs.
    destruct (send_global beh f G_ADDGE (mkEv 0 0 k) (gev_entry_world w tag k m)) as [[] w3|e w3]; cbn [rbind]; [intros _ f0 Hf; discriminate|exact Hs]. }
  split; [exact Hadd|]. intros ev. rewrite send_global_unfold. destruct (IH tag w HZ HT) as [Ka _].
  pose proof (proj1 (gev_tri beh ZL f tag w (ZJ w HZ))) as Ht. pose proof (proj1 (gev_KR f tag w HZ HT)) as Kr.
  destruct (add_global_event beh f tag w) as [k w1|e w1]; cbn [res_world] in *.
  - destruct Ht as (J1 & _ & R1). apply JZ in J1. assert (HT1 : TG w1) by exact (proj1 (proj2 Kr)).
    assert (HZ2 : ZI (if 10 <? tag then note w1 tag (ev_id ev) else w1)) by (destruct (10 <? tag); exact J1).
    assert (Hr : registries (if 10 <? tag then note w1 tag (ev_id ev) else w1) = registries w1) by (destruct (10 <? tag); reflexivity).
    apply flush_FQ; [exact HZ2|eapply TG_reg; eauto|]. intros x [<-|[]]. apply (item_ok_reg w1); [exact Hr|exact (proj1 (gby_known w1 tag k (proj2 J1) R1))].
  - intros Hl f0 Hf H8 H5. cbn [res_world res_fail] in *. assert (Hl1 : elen w1 < U32MAX) by (rewrite <- (eo_elen _ _ (eo_ev_drop w1 false tag ev)); exact Hl).
    eapply eo_Quiet; [apply eo_ev_drop|]. exact (Ka Hl1 f0 Hf H8 H5).
Qed.

Lemma op_spawn_KR w : ZI w -> TG w -> KR w (op_spawn beh w).
Proof.
  intros HZ HT. unfold op_spawn. destruct (reserve w) as [id w1|f w1] eqn:Er; cbn [rbind].
  2:{ unfold reserve in Er. destruct (nki_next (w_rcur w) (w_ents w)) as [[[k|] i']|]; inversion Er; subst; now apply KR_fail. }
  assert (H1 : ZI w1 /\ TG w1 /\ elen w1 = elen w) by (destruct (reserve_ok w id w1 Er) as [i ->]; split; [exact HZ|split; [exact HT|reflexivity]]).
  destruct H1 as (HZ1 & HT1 & El).
  (* send_global RFUEL G_SPAWN: registration (possibly announcing the new event), then the flush of the Spawn event *)
  change RFUEL with (S 7). rewrite send_global_unfold.
  destruct (gev_KR 7 G_SPAWN w1 HZ1 HT1) as [Ka _]. pose proof (proj1 (gev_tri beh ZL 7 G_SPAWN w1 (ZJ w1 HZ1))) as H2.
  pose proof (proj1 (gev_FQ 7 G_SPAWN w1 HZ1 HT1)) as Kf.
  destruct (add_global_event beh 7 G_SPAWN w1) as [k w2|e w2]; cbn [res_world rbind] in *.
  - destruct H2 as (Z2 & _ & R2). apply JZ in Z2. destruct (gby_known w2 G_SPAWN k (proj2 Z2) R2) as (Hg & _ & Htag).
    destruct Ka as (K1 & K2 & _). cbn [res_world] in *.
    replace (10 <? G_SPAWN) with false by reflexivity.
    assert (Hsp : spawn_item w2 (mkQ false (fst k) KEY_NULL (mkEv 0 0 id))).
    { split; [reflexivity|]. cbn [qi_idx]. destruct Hg as [Hg _]. destruct (get_by_index (w_gev w2) (fst k)) as [[k0 info]|] eqn:E; [|congruence].
      exists k0, info. split; [reflexivity|]. rewrite (K2 _ _ _ E), (Htag _ _ E). reflexivity. }
    destruct (flush_Q [mkQ false (fst k) KEY_NULL (mkEv 0 0 id)] w2 Z2 K2) as [F1 F3]; [intros x [<-|[]]; exact Hg|].
    assert (F2 : TG (res_world (flush beh [mkQ false (fst k) KEY_NULL (mkEv 0 0 id)] w2))) by (eapply TG_reg; [apply registries_flush|exact K2]).
    assert (HJ : J w2 [mkQ false (fst k) KEY_NULL (mkEv 0 0 id)]) by (right; eexists; split; [now left|exact Hsp]).
    destruct (flush beh [mkQ false (fst k) KEY_NULL (mkEv 0 0 id)] w2) as [[] w3|f w3] eqn:Ef; cbn [rbind res_world] in *.
    + split; cbn [res_world]; [change (elen (push_known w3 id)) with (elen w3); lia|]. split; [exact F2|]. intros Hl _ _.
      apply (eo_Quiet (push_known w3 id) w3); [reflexivity|]. apply F3; [exact Hl|discriminate|exact HJ].
    + split; cbn [res_world]; [lia|]. split; [exact F2|]. intros Hl Hn _. apply F3; [exact Hl|exact (proj1 Hn)|exact HJ].
  - destruct Ka as (K1 & K2 & _). cbn [res_world] in *. split; cbn [res_world]; [rewrite (eo_elen _ _ (eo_ev_drop _ _ _ _)); lia|].
    split; [eapply TG_gev; [|exact K2]; apply (r_ev_drop w_gev); fr|].
    intros Hl [H8 H5] _. cbn [res_fail] in H8, H5. eapply eo_Quiet; [apply eo_ev_drop|]. rewrite (eo_elen _ _ (eo_ev_drop _ _ _ _)) in Hl.
    apply (Kf Hl e eq_refl); congruence.
Qed.

Lemma op_insert_KR e ktag w : ZI w -> TG w -> KR w (op_insert beh e ktag w).
Proof.
  intros HZ HT. unfold op_insert. destruct (new_cval w ktag) as [v w1] eqn:E.
  assert (Hw : w1 = snd (new_cval w ktag)) by now rewrite E.
  assert (HZ1 : ZI w1) by (subst w1; unfold new_cval; destruct (ctag_zst ktag); exact HZ).
  assert (Ee : eo w1 = eo w) by (subst w1; unfold new_cval; destruct (ctag_zst ktag); reflexivity).
  apply (KR_pre w w1 _ Ee). apply send_to_KR; [exact HZ1|]. eapply TG_gev; [|exact HT]. subst w1; unfold new_cval; destruct (ctag_zst ktag); reflexivity.
Qed.
Lemma op_send_KR gtag w : ZI w -> TG w -> KR w (op_send beh gtag w).
Proof. intros HZ HT. unfold op_send. cbn [fresh_serial]. eapply KR_pre; [|apply send_global_KR; [exact HZ|exact HT]]. reflexivity. Qed.
Lemma op_send_to_KR e ttag w : ZI w -> TG w -> KR w (op_send_to beh e ttag w).
Proof. intros HZ HT. unfold op_send_to. cbn [fresh_serial]. eapply KR_pre; [|apply send_to_KR; [exact HZ|exact HT]]. reflexivity. Qed.

Lemma resolve_query_KR q : forall w, ZI w -> TG w -> KR w (resolve_query beh q w).
Proof.
  induction q as [c|c|qs IH|q IH|l r IHl IHr|l r IHl IHr|q IH|q IH|q IH|] using query_ind'; intros w HZ HT; cbn [resolve_query];
    try (eapply rbind_KR; [now apply add_component_KR|intros ? w1 _ HT1; now apply KR_ok]);
    try (eapply rbind_KR; [now apply IH|intros ? w1 _ HT1; now apply KR_ok]);
    try (eapply rbind_KT; [now apply IHl|exact (resolve_query_tri beh ZL _ w (ZJ w HZ))|intros a w1 HZ1 HT1 _;
         eapply rbind_KR; [now apply IHr|intros ? w2 _ HT2; now apply KR_ok]]);
    try (now apply KR_ok).
  eapply rbind_KR; [|intros ? w1 _ HT1; now apply KR_ok].
  revert w HZ HT. induction IH as [|x t Hx _ IHt]; intros w HZ HT; [now apply KR_ok|].
  eapply rbind_KT; [now apply Hx|exact (resolve_query_tri beh ZL x w (ZJ w HZ))|]. intros x' w1 HZ1 HT1 _.
  eapply rbind_KR; [now apply IHt|]. intros t' w2 _ HT2. now apply KR_ok.
Qed.

Lemma register_set_KR evs : forall w, ZI w -> TG w -> KR w (register_set beh evs w).
Proof.
  induction evs as [|[t tag] rest IH]; intros w HZ HT; cbn [register_set]; [now apply KR_ok|].
  destruct t; [eapply rbind_KT; [now apply add_targeted_event_KR|exact (add_targeted_event_tri beh ZL tag w (ZJ w HZ))|]
              |eapply rbind_KT; [now apply add_global_event_KR|exact (add_global_event_tri beh ZL tag w (ZJ w HZ))|]];
    intros k w1 HZ1 HT1 _; (eapply rbind_KR; [now apply IH|]); intros r w2 _ HT2; now apply KR_ok.
Qed.

Lemma init_param_KR p c w : ZI w -> TG w -> KR w (init_param beh p c w).
Proof.
  intros HZ HT. destruct p as [tag m|tag m q|k q|evs]; cbn [init_param].
  - eapply rbind_KR; [now apply add_global_event_KR|]. intros k w1 _ HT1. now apply KR_ok.
  - eapply rbind_KT; [now apply add_targeted_event_KR|exact (add_targeted_event_tri beh ZL tag w (ZJ w HZ))|]. intros k w1 HZ1 HT1 _.
    eapply rbind_KR; [now apply resolve_query_KR|]. intros q' w2 _ HT2. cbn zeta. now apply KR_ok.
  - eapply rbind_KR; [now apply resolve_query_KR|]. intros q' w1 _ HT1. now apply KR_ok.
  - eapply rbind_KR; [now apply register_set_KR|]. intros r w1 _ HT1. cbn zeta. now apply KR_ok.
Qed.

Lemma init_params_KR ps : forall c w, ZI w -> TG w -> KR w (init_params beh ps c w).
Proof.
  induction ps as [|p t IH]; intros c w HZ HT; cbn [init_params]; [now apply KR_ok|].
  eapply rbind_KT; [now apply init_param_KR|exact (init_param_tri beh ZL p c w (ZJ w HZ))|]. intros c1 w1 HZ1 HT1 _. now apply IH.
Qed.

Lemma eo_archs_register_handler w hk : eo (archs_register_handler w hk) = eo w.
Proof. now apply (archs_register_handler_frame eo). Qed.

Lemma add_handler_KR sh w : ZI w -> TG w -> KR w (add_handler beh sh w).
Proof.
  intros HZ HT. rewrite add_handler_eq.
  destruct (match sh_tid sh with Some t => alookup t (w_hby w) | None => None end); [now apply KR_ok|].
  pose proof (init_params_tri beh ZL (sh_params sh) cfg0 w (ZJ w HZ)) as H1.
  eapply rbind_KR; [apply init_params_KR; [exact HZ|exact HT]|]. intros c w1 E HT1. rewrite E in H1. destruct H1 as (J1 & _ & C1).
  destruct (handler_entry sh c w1) as [f|[k w3]] eqn:Eh; [now apply KR_fail|].
  pose proof (place_J beh ZL _ _ _ (p_handler_entry sh w c w1 k w3 (C1 (cfg_known0 w)) E Eh) J1) as J3.
  assert (Ee : eo w3 = eo w1).
  { destruct (handler_entry_inv sh c w1 k w3 Eh) as (rv & acc & hs & _ & _ & _ & ->). now rewrite eo_archs_register_handler. }
  assert (HT3 : TG w3) by (eapply TG_gev; [exact (proj2 (handler_entry_structure sh c w1 k w3 Eh))|exact HT1]).
  apply (KR_pre w1 _ _ Ee). eapply rbind_KR; [apply send_global_KR; [exact (JZ w3 J3)|exact HT3]|]. intros [] w4 _ HT4. now apply KR_ok.
Qed.

Lemma remove_handler_KR k w : ZI w -> TG w -> KR w (remove_handler beh k w).
Proof.
  intros HZ HT. unfold remove_handler. destruct (sm_get k (w_hs w)); [|now apply KR_ok].
  eapply rbind_KR; [now apply send_global_KR|]. intros [] w1 _ HT1.
  unfold handlers_remove. destruct (sm_remove k (w_hs w1)) as [[h1 hs]|]; [|now apply KR_fail]. apply KR_ok; [reflexivity|exact HT1].
Qed.
Lemma remove_handlers_KR ks : forall w, ZI w -> TG w -> KR w (remove_handlers beh ks w).
Proof.
  induction ks as [|k t IH]; intros w HZ HT; cbn [remove_handlers]; [now apply KR_ok|].
  eapply rbind_KK; [now apply remove_handler_KR|exact (remove_handler_keeps beh ZL k w (ZJ w HZ))|]. intros b w1 HZ1 HT1. now apply IH.
Qed.

Lemma remove_global_event_KR k w : ZI w -> TG w -> KR w (remove_global_event beh k w).
Proof.
  intros HZ HT. unfold remove_global_event. destruct (sm_get k (w_gev w)); [|now apply KR_ok].
  eapply rbind_KT; [now apply send_global_KR|exact (send_global_tri beh ZL G_RMGE (mkEv 0 0 k) w (ZJ w HZ))|]. intros [] w1 Z1 HT1 _.
  eapply rbind_KR; [now apply remove_handlers_KR|]. intros [] w2 _ HT2.
  destruct (sm_remove k (w_gev w2)) as [[info m]|] eqn:Er; [|now apply KR_fail]. apply KR_ok; [reflexivity|].
  intros i k' info' Hg. cbn [w_gev set_gev] in Hg. eapply HT2. eapply gbi_remove; eauto.
Qed.
Lemma remove_targeted_event_KR k w : ZI w -> TG w -> KR w (remove_targeted_event beh k w).
Proof.
  intros HZ HT. unfold remove_targeted_event. destruct (sm_get k (w_tev w)); [|now apply KR_ok].
  eapply rbind_KT; [now apply send_global_KR|exact (send_global_tri beh ZL G_RMTE (mkEv 0 0 k) w (ZJ w HZ))|]. intros [] w1 Z1 HT1 _.
  eapply rbind_KR; [now apply remove_handlers_KR|]. intros [] w2 _ HT2.
  destruct (sm_remove k (w_tev w2)) as [[info m]|] eqn:Er; [|now apply KR_fail]. apply KR_ok; [destruct (e_kind info); reflexivity|].
  eapply TG_gev; [|exact HT2]. destruct (e_kind info); reflexivity.
Qed.
Lemma remove_tevents_KR ks : forall w, ZI w -> TG w -> KR w (remove_tevents beh ks w).
Proof.
  induction ks as [|k t IH]; intros w HZ HT; cbn [remove_tevents]; [now apply KR_ok|].
  eapply rbind_KK; [now apply remove_targeted_event_KR|exact (remove_targeted_event_keeps beh ZL k w (ZJ w HZ))|]. intros b w1 HZ1 HT1. now apply IH.
Qed.

Definition el3 (w : world) := (elen w, w_rcnt w, w_gev w).
Lemma el3_archs_remove_component cidx ctag w l : el3 (archs_remove_component w cidx ctag l) = el3 w.
Proof.
  apply (arc_pres cidx ctag el3); [|reflexivity]. intros w0 ai a D. unfold el3, elen. cbn. do 3 f_equal.
  apply (remove_keys_ind (fun m => length (slots m) = length (slots (w_ents w0)))); [|reflexivity]. intros k m v m' <- Er. exact (sm_remove_len _ _ _ _ Er).
Qed.

Lemma el3_rc_step cidx ctag w ai : el3 (rc_step cidx ctag w ai) = el3 w.
Proof. exact (el3_archs_remove_component cidx ctag w [ai]). Qed.

Lemma remove_component_KR k w : ZI w -> TG w -> KR w (remove_component beh k w).
Proof.
  intros HZ HT. unfold remove_component. destruct (sm_get k (w_comps w)); [|now apply KR_ok].
  eapply rbind_KT; [now apply send_global_KR|exact (send_global_tri beh ZL G_RMC (mkEv 0 0 k) w (ZJ w HZ))|]. intros [] w1 Z1 HT1 _.
  eapply rbind_KT; [now apply add_targeted_event_KR|exact (add_targeted_event_tri beh ZL T_DESPAWN w1 (ZJ w1 Z1))|]. intros dk w2 Z2 HT2 Rdk.
  cbn zeta. fold (despawn_queue k dk w2).
  pose proof (despawn_queued k dk w2 Rdk) as HQ.
  eapply rbind_KT; [apply flush_KR; [exact Z2|exact HT2|]|exact (flush_tri beh ZL _ w2 (ZJ w2 Z2) HQ)|].
  { intros x Hx. exact (queued_ok w2 x (proj2 Z2) (HQ x Hx)). }
  intros [] w3 Z3 HT3 _. fold (comp_users k w3).
  eapply rbind_KK; [now apply remove_handlers_KR|exact (remove_handlers_keeps beh ZL _ w3 (ZJ w3 Z3))|]. intros [] w4 Z4 HT4.
  destruct (sm_get k (w_comps w4)) as [ci|]; [|now apply KR_fail].
  eapply rbind_KR; [now apply remove_tevents_KR|]. intros [] w5 _ HT5.
  destruct (sm_remove k (w_comps w5)) as [[ci' m]|]; [|now apply KR_fail].
  set (w6 := set_comps w5 m (aremove (c_tag ci') (w_cby w5))).
  pose proof (el3_archs_remove_component (fst k) (c_tag ci') w6 (c_member_of ci')) as H7. unfold el3 in H7.
  set (w7 := archs_remove_component w6 (fst k) (c_tag ci') (c_member_of ci')) in *.
  assert (El : elen w7 = elen w5) by exact (f_equal (fun x => fst (fst x)) H7).
  assert (Ec : w_rcnt w7 = w_rcnt w5) by exact (f_equal (fun x => snd (fst x)) H7).
  assert (Eg : w_gev w7 = w_gev w5) by exact (f_equal snd H7).
  unfold KR, refresh_cursor. cbn [res_world]. change (elen (set_res w7 (next_key_iter (w_ents w7)) (w_rcnt w7))) with (elen w7).
  split; [lia|]. split; [eapply TG_gev; [|exact HT5]; exact Eg|]. intros _ _ [Q1 _]. split; cbn [w_rcnt w_rcur w_ents set_res]; [congruence|reflexivity].
Qed.

Lemma KR_res {A} w (r : res A) : KR w r ->
  let p := match r with ROk _ w' => (w', None) | RFail e w' => (w', Some e) end in
  elen w <= elen (fst p) /\ TG (fst p) /\ (elen (fst p) < U32MAX -> snd p <> Some (FPanic 8) -> snd p <> Some (FPanic 5) -> Quiet w -> Quiet (fst p)).
Proof.
  intros (K1 & K2 & K3). destruct r as [a w'|e w']; cbn [fst snd res_world] in *; (split; [exact K1|split; [exact K2|]]);
    intros Hl H8 H5; apply K3; try exact Hl; split; cbn [res_fail]; assumption.
Qed.

Lemma run_top_res_KR w o : ZI w -> TG w ->
  let r := run_top_res beh w o in
  elen w <= elen (fst r) /\ TG (fst r) /\ (elen (fst r) < U32MAX -> snd r <> Some (FPanic 8) -> snd r <> Some (FPanic 5) -> Quiet w -> Quiet (fst r)).
Proof.
  intros HZ HT. destruct o as [o|k]; [destruct o|]; cbn [run_top_res]; apply KR_res.
  - apply op_spawn_KR; assumption. - apply op_insert_KR; assumption.
  - unfold op_remove. apply send_to_KR; assumption. - unfold op_despawn. apply send_to_KR; assumption.
  - apply op_send_KR; assumption. - apply op_send_to_KR; assumption. - apply add_handler_KR; assumption. - apply remove_handler_KR; assumption.
  - apply add_component_KR; assumption. - apply add_global_event_KR; assumption. - apply add_targeted_event_KR; assumption.
  - apply remove_global_event_KR; assumption. - apply remove_targeted_event_KR; assumption. - apply remove_component_KR; assumption.
Qed.
End QStep.

(* no call of the history ended with the model's delivery budget or a registry's capacity exhausted *)
Fixpoint no_exhaustion (beh : hinfo -> logent -> N -> script) (ops : list top_all) (w : world) : Prop :=
  match ops with
  | [] => True
  | o :: t => snd (run_top_res beh w o) <> Some (FPanic 8) /\ snd (run_top_res beh w o) <> Some (FPanic 5) /\
              no_exhaustion beh t (fst (run_top_res beh w o))
  end.

Lemma Quiet_world0 fuel p : Quiet (world0 fuel p). Proof. split; reflexivity. Qed.
Lemma TG_world0 fuel p : TG (world0 fuel p). Proof. intros i k info H. discriminate. Qed.

Theorem reachable_Quiet beh fuel p ops : NoTakeSpawn beh -> no_exhaustion beh ops (world0 fuel p) ->
  let w := fold_left (run_top_all beh) ops (world0 fuel p) in elen w < U32MAX -> Quiet w.
Proof.
  intros Hnt. cbn zeta.
  assert (G : forall ops w, ZI w -> TG w -> no_exhaustion beh ops w ->
     elen w <= elen (fold_left (run_top_all beh) ops w) /\ (elen (fold_left (run_top_all beh) ops w) < U32MAX -> Quiet w -> Quiet (fold_left (run_top_all beh) ops w))).
  { clear ops. induction ops as [|o t IH]; intros w HZ HT Hne; cbn [fold_left]; [split; [lia|auto]|].
    destruct Hne as (H8 & H5 & Hne). pose proof (run_top_res_KR beh Hnt w o HZ HT) as HK. cbn zeta in HK. destruct HK as (K1 & K2 & K3).
    pose proof (proj1 (run_top_res_ZI beh w o HZ)) as HZ1. rewrite <- run_top_res_world.
    destruct (IH _ HZ1 K2 Hne) as [A B]. split; [lia|]. intros Hl Hq. apply B; [exact Hl|]. apply K3; [lia|exact H8|exact H5|exact Hq]. }
  intros Hne Hl. apply (G ops (world0 fuel p) (ZI_world0 fuel p) (TG_world0 fuel p) Hne); [exact Hl|apply Quiet_world0].
Qed.


(* In a quiet, consistent world the id handed out by a reservation is exactly the id of the entity that the
   next materialisation creates: a new component-less entity, every existing entity untouched, and the world
   is quiet again.  The materialisation cannot fail, whatever the capacity. *)
Theorem quiet_reservation_kept w : WInv w -> Quiet w ->
  match reserve w with
  | ROk id w1 => exists w', spawn_all w1 = ROk tt w' /\ WInv w' /\ sm_get id (w_ents w) = None /\
                            sm_get id (w_ents w') <> None /\ (forall c, abs w' id c = None) /\ ext_by_spawn w1 w' /\ Quiet w'
  | RFail _ w1 => w1 = w
  end.
Proof.
  intros HW HQ. pose proof (reserve_ReserveInv w [] (Quiet_ReserveInv w HQ)) as Hr. cbn [app] in Hr. destruct HQ as [Hz Hcur].
  unfold reserve in *. destruct (nki_next (w_rcur w) (w_ents w)) as [[[id|] i']|]; try reflexivity. set (w1 := set_res w i' (w_rcnt w + 1)) in *.
  destruct (spawn_all_creates_reserved w1 [id] HW Hr) as (w' & Es & HW' & Hks & Hext & Hc0 & Hr0).
  exists w'. split; [exact Es|]. split; [exact HW'|]. destruct (Hks id (or_introl eq_refl)) as [A B]. split.
  { (* the promised id is the one the next insertion returns, which is fresh *)
    pose proof HW as ((Hsm & _) & _). unfold reserved_ids in Hr. cbn [w_ents w_rcnt w_rcur w1 set_res] in Hr. rewrite Hz in Hr.
    destruct (insert_predicted (fun _ : key => ((0, 0) : eloc)) (w_ents w) id [] i' 0 Hsm Hr) as (m1 & Ei & _).
    exact (insert_get_fresh _ _ _ _ Hsm Ei). }
  split; [exact A|]. split; [exact B|]. split; [exact Hext|]. apply ReserveInv_zero; [exists []; exact Hr0|exact Hc0].
Qed.

Theorem quiet_reservation_is_kept w : WInv w -> Quiet w -> elen w + 1 <= U32MAX ->
  match reserve w with
  | ROk id w1 => exists w', spawn_all w1 = ROk tt w' /\ WInv w' /\ sm_get id (w_ents w) = None /\
                            sm_get id (w_ents w') <> None /\ (forall c, abs w' id c = None) /\ ext_by_spawn w1 w' /\ Quiet w'
  | RFail _ w1 => w1 = w
  end.
Proof. intros HW HQ _. now apply quiet_reservation_kept. Qed.

(* non-vacuity: the hypotheses of the theorems above are met by the scripted behaviour of the correspondence
   whenever the script does not take - and by the behaviour that does nothing *)
Example NoTakeSpawn_idle : NoTakeSpawn (fun _ _ _ => mkScript false 0 0 []).
Proof. intros h le n _ _. reflexivity. Qed.
Example quiet_somewhere : Quiet (world0 100 0) /\ elen (world0 100 0) < U32MAX /\ no_exhaustion (fun _ _ _ => mkScript false 0 0 []) [] (world0 100 0).
Proof. split; [apply Quiet_world0|]. split; [reflexivity|exact I]. Qed.

(* ReserveInv w (ReserveW.v): the cursor is where NextKeyIter stands after predicting, on the current entity map,
   as many ids as are currently reserved - so that the ids handed out since the last materialisation are exactly
   the ids the next spawn_all creates (ReserveW.reserved_ids_are_created).  It is an invariant of every step of the
   stack machine, for EVERY handler behaviour and from any state (no registry invariant is needed). *)
Lemma RI_ro w w' : ro w' = ro w -> ReserveInv w -> ReserveInv w'.
Proof. intros H. apply eo_ReserveInv. now apply ro_eo. Qed.
Lemma RI_reserve w : ReserveInv w -> ReserveInv (res_world (reserve w)).
Proof.
  intros [ks H]. pose proof (reserve_ReserveInv w ks H) as X. destruct (reserve w) as [k w'|f w']; cbn [res_world]; [exists (ks ++ [k]); exact X|subst; exists ks; exact H].
Qed.

Lemma run_actions_RI acts : forall ps t fresh sent w, ReserveInv w -> ReserveInv (snd (fst (run_actions acts ps t fresh sent w))).
Proof. intros ps t fresh sent w. apply sw_run_actions, (ro_swalks _ RI_ro RI_reserve). Qed.

Section RIStep.
Variable beh : hinfo -> logent -> N -> script.

Lemma run_handler_RI w h it tag loc : ReserveInv w -> ReserveInv (snd (run_handler beh w h it tag loc)).
Proof. apply (sw_run_handler ReserveInv (ro_swalks _ RI_ro RI_reserve)). Qed.
Lemma run_handlers_RI hl : forall w it tag loc sent, ReserveInv w -> ReserveInv (fst (fst (fst (fst (run_handlers beh hl w it tag loc sent))))).
Proof. intros w it tag loc sent. apply (sw_run_handlers ReserveInv (ro_swalks _ RI_ro RI_reserve)). Qed.

Lemma builtin_effect_RI kind ev loc w1 : ReserveInv w1 -> elen (res_world (builtin_effect kind ev loc w1)) < U32MAX ->
  snd (fail_of (builtin_effect kind ev loc w1)) = None -> ReserveInv (res_world (builtin_effect kind ev loc w1)).
Proof.
  intros HR Hl. destruct (builtin_effect_Q kind ev loc w1) as [_ HB]. specialize (HB Hl).
  destruct (builtin_effect kind ev loc w1) as [[] w3|f w3]; [intros _|discriminate]. cbn [res_world].
  destruct kind; try (eapply eo_ReserveInv; [exact HB|exact HR]); exists []; now apply Quiet_ReserveInv.
Qed.

Lemma deliver_one_RI it w : ReserveInv w -> elen (snd (fst (deliver_one beh it w))) < U32MAX -> snd (deliver_one beh it w) = None ->
  ReserveInv (snd (fst (deliver_one beh it w))).
Proof.
  apply (sw_deliver_one beh _ (ro_swalks _ RI_ro RI_reserve) (fun w' fl => elen w' < U32MAX -> fl = None -> ReserveInv w')); [auto|].
  intros k info ev loc w1 _ _ _ H _. now apply builtin_effect_RI.
Qed.

Lemma flush_loop_elen : forall n q (st : wst) acc tr st' oc,
  Loop.flush wst qitem (run_w beh) unwind_w n q st acc = Some (tr, st', oc) -> elen (fst st) <= elen (fst st').
Proof.
  intros n q st acc tr st' oc H.
  assert (HF : match oc with Finished | Aborted => elen (fst st) <= elen (fst st') end); [|now destruct oc].
  refine (flush_w_exit beh (fun w _ _ => elen (fst st) <= elen w) (fun w _ _ => elen (fst st) <= elen w) _ n q st acc tr st' oc H (N.le_refl _)).
  intros rest e w tr0 HI. pose proof (deliver_one_elen beh e w) as El.
  destruct (deliver_one beh e w) as [[sent w2] [[k|u]|]]; cbn [fst snd] in El; [pose proof (proj1 (unwind_Quiet (rest ++ sent) w2))|..]; lia.
Qed.

(* the whole stack machine: the cursor invariant holds at every step and at the end (an aborted propagation ends
   with the unwinding materialisation, after which nothing is reserved); FUB failures, which no reachable world
   produces (Sender.no_call_fails_unchecked), are excluded *)
Theorem flush_loop_RI : forall n q (st : wst) acc tr st' oc,
  Loop.flush wst qitem (run_w beh) unwind_w n q st acc = Some (tr, st', oc) ->
  ReserveInv (fst st) -> (oc = Aborted -> ~ ubf (snd st')) -> elen (fst st') < U32MAX -> ReserveInv (fst st').
Proof.
  intros n q st acc tr st' oc H HR Hnu Hl.
  (* slot counts only grow, so the bound on the last world bounds every world before it *)
  assert (HF : match oc with Finished => elen (fst st') < U32MAX -> ReserveInv (fst st')
                           | Aborted => ~ ubf (snd st') -> elen (fst st') < U32MAX -> ReserveInv (fst st') end);
    [|destruct oc; [exact (HF Hl)|exact (HF (Hnu eq_refl) Hl)]].
  refine (flush_w_exit beh (fun w _ _ => elen w < U32MAX -> ReserveInv w) (fun w fl _ => ~ ubf fl -> elen w < U32MAX -> ReserveInv w)
            _ n q st acc tr st' oc H (fun _ => HR)).
  intros rest e w tr0 HI. pose proof (deliver_one_elen beh e w) as El. pose proof (fun X => deliver_one_RI e w (HI X)) as HD.
  destruct (deliver_one beh e w) as [[sent w2] [[k|u]|]]; cbn [fst snd] in *; [intros _ Hl2|intros []; exact I|intros Hl2; apply HD; [lia|exact Hl2|reflexivity]].
  exists []. apply Quiet_ReserveInv, unwind_Quiet, Hl2.
Qed.

Theorem flush_RI q w : ReserveInv w -> ~ ubf (res_fail (flush beh q w)) -> elen (res_world (flush beh q w)) < U32MAX ->
  res_fail (flush beh q w) <> Some (FPanic 8) -> ReserveInv (res_world (flush beh q w)).
Proof.
  intros HR. apply (flush_cases beh q w (fun r => ~ ubf (res_fail r) -> elen (res_world r) < U32MAX -> res_fail r <> Some (FPanic 8) -> ReserveInv (res_world r))); cbn [res_world res_fail].
  - intros _ _ X. now contradiction X.
  - intros tr w1 fl E _ Hl _. apply (RI_ro w1); [reflexivity|]. apply (flush_loop_RI _ _ _ _ _ _ _ E HR); [discriminate|exact Hl].
  - intros tr w1 f E Hn Hl _. apply (flush_loop_RI _ _ _ _ _ _ _ E HR); [intros _; exact Hn|exact Hl].
Qed.
End RIStep.
