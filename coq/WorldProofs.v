(* WorldProofs.v : theorems about the world model that do not need the global invariant. *)
From Coq Require Import List NArith Bool Lia.
Import ListNotations.
Require Import EV.Base EV.Access EV.Query EV.SlotMap EV.Reserve EV.HList EV.Loop EV.World.
Open Scope N_scope.

Section WithBeh.
Variable beh : hinfo -> logent -> N -> script.

(* C16: registration of something already registered returns the existing id, changes
   nothing and delivers nothing (the world is returned unchanged, so in particular no
   handler ran and no notification was recorded) *)
Lemma add_component_idem tag k w :
  alookup tag (w_cby w) = Some k -> add_component beh tag w = ROk k w.
Proof. intros H. unfold add_component. now rewrite H. Qed.

Lemma add_global_event_idem f tag k w :
  alookup tag (w_gby w) = Some k -> add_global_event beh (S f) tag w = ROk k w.
Proof. intros H. cbn [add_global_event]. now rewrite H. Qed.

Lemma add_targeted_event_idem tag k w :
  tag < 20 -> alookup tag (w_tby w) = Some k -> add_targeted_event beh tag w = ROk k w.
Proof.
  intros Hlt H. unfold add_targeted_event.
  assert ((20 <=? tag) = false) as -> by (apply N.leb_gt; lia). cbn [andb].
  assert ((40 <=? tag) = false) as -> by (apply N.leb_gt; lia). cbn [andb].
  destruct (tag =? T_DESPAWN); cbn [rbind]; now rewrite H.
Qed.

Lemma add_insert_event_idem c ck k w :
  c < 20 -> alookup c (w_cby w) = Some ck -> alookup (T_INSERT c) (w_tby w) = Some k ->
  add_targeted_event beh (T_INSERT c) w = ROk k w.
Proof.
  intros Hlt Hc H. unfold add_targeted_event, T_INSERT in *.
  assert ((20 <=? 20 + c) = true) as -> by (apply N.leb_le; lia).
  assert ((20 + c <? 40) = true) as -> by (apply N.ltb_lt; lia). cbn [andb].
  replace (20 + c - 20) with c by lia. rewrite (add_component_idem _ _ _ Hc). cbn [rbind]. now rewrite H.
Qed.

Lemma add_handler_idem sh t k w :
  sh_tid sh = Some t -> alookup t (w_hby w) = Some k -> add_handler beh sh w = ROk k w.
Proof. intros Ht H. unfold add_handler. now rewrite Ht, H. Qed.

(* removal of something that is not registered is a no-op *)
Lemma remove_handler_stale k w : sm_get k (w_hs w) = None -> remove_handler beh k w = ROk false w.
Proof. intros H. unfold remove_handler. now rewrite H. Qed.
Lemma remove_component_stale k w : sm_get k (w_comps w) = None -> remove_component beh k w = ROk false w.
Proof. intros H. unfold remove_component. now rewrite H. Qed.
Lemma remove_global_event_stale k w : sm_get k (w_gev w) = None -> remove_global_event beh k w = ROk false w.
Proof. intros H. unfold remove_global_event. now rewrite H. Qed.
Lemma remove_targeted_event_stale k w : sm_get k (w_tev w) = None -> remove_targeted_event beh k w = ROk false w.
Proof. intros H. unfold remove_targeted_event. now rewrite H. Qed.

(* C04 at world level: the trace of the world model's flush is depth-first *)
Theorem world_flush_depth_first n q w tr s' :
  Loop.flush wst qitem (run_w beh) unwind_w n q (w, None) [] = Some (tr, s', Finished) ->
  deliver_list wst qitem (run_w beh) (rev q) (w, None) tr s'.
Proof.
  intros H. destruct (flush_sound _ _ _ _ _ _ _ _ _ _ H) as (tr0 & -> & Hd). exact Hd.
Qed.
End WithBeh.
