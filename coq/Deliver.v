(* Deliver.v : what ONE delivery of a structural event does to the abstract map (entity, component) -> value,
   for every handler behaviour (C09, C02).
     - the handlers of the event run first and see the map as it was: they can change VALUES of existing cells
       (through &mut items) but not which cells exist (handlers_preserve_structure), so presence before the
       effect = presence before the delivery;
     - then, if no handler took the event and none panicked, the effect is applied exactly once to the world the
       handlers left: Insert sets (target, c) to the event's value and touches no other cell; Remove deletes
       (target, c) and touches no other cell; Despawn deletes every cell of the target and no other entity's;
     - if a handler took the event, nothing but the handlers' value writes happened. *)
From Coq Require Import List NArith Bool Lia Sorted.
Import ListNotations.
Require Import EV.Base EV.ListN EV.Access EV.Query EV.SlotMap EV.Reserve EV.HList EV.Loop EV.World EV.SlotMapGet
  EV.ArchProofs EV.WorldFrame EV.Layer EV.Store EV.Graph EV.Effects EV.Reach.
Open Scope N_scope.

Lemma abs_presence_1 w w' : structure w' = structure w -> forall e c, abs w e c = None -> abs w' e c = None.
Proof.
  intros Hs e c. unfold abs. rewrite (structure_ents _ _ Hs). destruct (sm_get e (w_ents w)) as [[ai row]|]; [|auto].
  destruct (arch_at w ai) as [a|] eqn:Ea.
  - destruct (arch_at_structure w w' Hs ai a Ea) as (a' & Ea' & Hc & Hr & _). rewrite Ea'.
    pose proof (f_equal (fun l => nget l row) Hr) as Hrow. cbn beta in Hrow. rewrite !nget_map in Hrow.
    destruct (nget (a_rows a) row) as [[e0 vals]|], (nget (a_rows a') row) as [[e1 vals']|]; cbn in Hrow; try discriminate; [|auto].
    unfold rshape in Hrow. cbn [fst snd] in Hrow. inversion Hrow as [[He Hl]]. unfold row_col. rewrite Hc.
    destruct (col_index (a_comps a) c) as [ci|]; [|auto]. intros Hn. apply nget_none_ge in Hn. apply nget_ge_none. unfold nlen in *. lia.
  - (* no such archetype in w: then none in w' either (the slab shapes agree) *)
    intros _. destruct (arch_at w' ai) as [a'|] eqn:Ea'; [|reflexivity].
    destruct (arch_at_structure w' w (eq_sym Hs) ai a' Ea') as (a & X & _). congruence.
Qed.
Lemma abs_presence w w' : structure w' = structure w -> forall e c, abs w' e c = None <-> abs w e c = None.
Proof. intros Hs e c. split; [apply abs_presence_1; now symmetry|now apply abs_presence_1]. Qed.

Section Deliver.
Variable beh : hinfo -> logent -> N -> script.

Lemma deliver_one_targeted it w k info loc a :
  qi_targeted it = true -> get_by_index (w_tev w) (qi_idx it) = Some (k, info) ->
  sm_get (qi_target it) (w_ents w) = Some loc -> slab_get (w_archs w) (fst loc) = Some a ->
  deliver_one beh it w =
    (let hl := match alookup (qi_idx it) (a_listeners a) with Some l => hl_entries l | None => [] end in
     let '(w1, ev, sent, taken, fl) := run_handlers beh hl w it (e_tag info) loc [] in
     match fl with
     | Some f => (sent, (if taken then w1 else ev_drop w1 true (e_tag info) ev), Some f)
     | None => if taken then (sent, w1, None) else
         match e_kind info with
         | KNormal => (sent, ev_drop w1 true (e_tag info) ev, None)
         | _ => let '(w3, f) := fail_of (builtin_effect (e_kind info) ev loc w1) in (sent, w3, f)
         end
     end).
Proof. intros Ht Hg Hl Ha. rewrite deliver_one_eq. unfold deliver_finish. rewrite Ht, Hg, Hl, Ha. reflexivity. Qed.

Theorem deliver_structural it w k info loc a w1 ev sent taken :
  WInv w -> qi_targeted it = true -> get_by_index (w_tev w) (qi_idx it) = Some (k, info) ->
  sm_get (qi_target it) (w_ents w) = Some loc -> slab_get (w_archs w) (fst loc) = Some a ->
  run_handlers beh (match alookup (qi_idx it) (a_listeners a) with Some l => hl_entries l | None => [] end) w it (e_tag info) loc []
    = (w1, ev, sent, taken, None) ->
  let e := qi_target it in
  (* what the handlers did *)
  WInv w1 /\ w_ents w1 = w_ents w /\ (forall e' c', abs w1 e' c' = None <-> abs w e' c' = None) /\
  (* what the delivery did *)
  (taken = true -> deliver_one beh it w = (sent, w1, None)) /\
  (taken = false -> match e_kind info with
     | KInsert c => exists w3, deliver_one beh it w = (sent, w3, None) /\ WInv w3 /\
                     abs w3 e c = Some (ev_ser ev, ev_val ev) /\ (forall c', c' <> c -> abs w3 e c' = abs w1 e c') /\
                     (forall e' c', e' <> e -> abs w3 e' c' = abs w1 e' c')
     | KRemove c => exists w3, deliver_one beh it w = (sent, w3, None) /\ WInv w3 /\
                     abs w3 e c = None /\ (forall c', c' <> c -> abs w3 e c' = abs w1 e c') /\
                     (forall e' c', e' <> e -> abs w3 e' c' = abs w1 e' c')
     | KDespawn => exists w3 f, deliver_one beh it w = (sent, w3, f) /\ WInv w3 /\
                     (f = None -> sm_get e (w_ents w3) = None /\ (forall c', abs w3 e c' = None) /\
                                  (forall e' c', e' <> e -> sm_get e' (w_ents w1) <> None -> abs w3 e' c' = abs w1 e' c')) /\
                     (f <> None -> f = Some (FPanic 5))
     | _ => True
     end).
Proof.
  intros HW Ht Hg Hl Ha Hrun e.
  pose proof (handlers_preserve_structure beh (match alookup (qi_idx it) (a_listeners a) with Some l => hl_entries l | None => [] end) w it (e_tag info) loc []) as Hs. rewrite Hrun in Hs. cbn [fst] in Hs.
  pose proof (WInv_structure w w1 Hs HW) as HW1. pose proof (structure_ents _ _ Hs) as He1.
  split; [exact HW1|]. split; [exact He1|]. split; [exact (abs_presence w w1 Hs)|].
  pose proof (deliver_one_eq beh it w) as E. rewrite Ht, Hg, Hl, Ha in E. unfold deliver_finish, listeners_of in E. rewrite Hrun in E.
  split; [intros Et; rewrite Et in E; exact E|]. intros Et. rewrite Et in E.
  assert (Hl1 : sm_get e (w_ents w1) = Some loc) by (unfold e; now rewrite He1).
  destruct (e_kind info) as [|c|c| |]; try exact I; rewrite E; clear E.
  - destruct (insert_effect_map w1 e loc c ev HW1 Hl1) as (w3 & -> & HW3 & A & B & C & _). exists w3. cbn [fail_of]. auto.
  - destruct (remove_effect_map w1 e loc c ev HW1 Hl1) as (w3 & -> & HW3 & A & B & C & _). exists w3. cbn [fail_of]. auto.
  - pose proof (despawn_effect_map w1 e loc ev HW1 Hl1) as Hd. destruct (builtin_effect KDespawn ev loc w1) as [[] w3|f w3]; cbn [fail_of].
    + destruct Hd as (HW3 & Hgone & Hoth & _). exists w3, None. split; [reflexivity|]. split; [exact HW3|]. split; [|congruence].
      intros _. split; [exact Hgone|]. split; [intros c'; now apply abs_dead|]. intros e' c' Hne Hlive. exact (proj2 (Hoth e' Hne Hlive) c').
    + destruct Hd as [-> Hext]. exists w3, (Some (FPanic 5)). split; [reflexivity|]. split; [exact (proj1 Hext)|]. split; [discriminate|auto].
Qed.
End Deliver.
