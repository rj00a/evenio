(* Users.v : removing a handler or an event removes exactly what the documentation says (C15, C14).
   remove_handler: afterwards the key is dead, every other handler is untouched.
   remove_global_event / remove_targeted_event: afterwards the event is dead and the live handlers
   are exactly those of before that neither receive the event nor can send it, each unchanged.
   remove_component: afterwards the index is free and nothing references the component.  Also: World::get returns
   what the storage map holds, and the handlers a delivery runs listen for the event registered at the item's index. *)
From Coq Require Import List NArith Bool Lia Sorted Permutation.
Import ListNotations.
Require Import EV.Base EV.ListN EV.Access EV.Query EV.SlotMap EV.Reserve EV.HList EV.Loop EV.World EV.SlotMapGet
  EV.AccessProofs EV.ArchProofs EV.QueryProofs EV.WorldFrame EV.Layer EV.Store EV.Graph EV.Effects EV.Reach EV.RemoveComp EV.Member EV.Listen EV.Order EV.Fetch EV.NoUB.
Require Import EV.Sender.
Open Scope N_scope.

(* the static view of every handler outside [ks] is unchanged (in particular: live stays live, dead stays dead) *)
Definition hs_keep (w' w : world) (ks : list key) : Prop :=
  forall hk, ~ In hk ks -> option_map hview3 (sm_get hk (w_hs w')) = option_map hview3 (sm_get hk (w_hs w)).
Lemma hs_keep_hv3 w' w ks : hv3 w' = hv3 w -> hs_keep w' w ks.
Proof. intros H hk _. exact (sview_get hview3 (w_hs w) (w_hs w') hk H). Qed.
Lemma hs_keep_trans a b c ks1 ks2 : hs_keep a b ks1 -> hs_keep b c ks2 -> hs_keep a c (ks1 ++ ks2).
Proof. intros H1 H2 hk Hn. rewrite H1, H2; [reflexivity| |]; intros X; apply Hn; apply in_or_app; auto. Qed.
Lemma hs_keep_weaken a b ks ks' : (forall x, In x ks -> In x ks') -> hs_keep a b ks -> hs_keep a b ks'.
Proof. intros Hs H hk Hn. apply H. auto. Qed.

Section U.
Variable beh : hinfo -> logent -> N -> script.

Lemma hv3_gev fuel : forall tag w,
  hv3 (res_world (add_global_event beh fuel tag w)) = hv3 w /\ forall ev, hv3 (res_world (send_global beh fuel tag ev w)) = hv3 w.
Proof. apply (gev_frame beh hv3 (hv3_flush beh) (r_ev_drop hv3 (fun _ _ => eq_refl))); reflexivity. Qed.

Lemma remove_handler_keep k w : SmInv (w_hs w) -> hs_keep (res_world (remove_handler beh k w)) w [k].
Proof.
  intros S. unfold remove_handler. destruct (sm_get k (w_hs w)); [|apply hs_keep_hv3; reflexivity].
  pose proof (hv3_send_global beh G_RMH (mkEv 0 0 k) w) as Hv.
  destruct (send_global beh RFUEL G_RMH (mkEv 0 0 k) w) as [[] w1|f w1]; cbn [rbind res_world] in *; [|now apply hs_keep_hv3].
  assert (S1 : SmInv (w_hs w1)) by (eapply sview_inv; [|exact S]; exact Hv).
  unfold handlers_remove. destruct (sm_remove k (w_hs w1)) as [[h1 hs]|] eqn:Er; cbn [res_world]; [|now apply hs_keep_hv3].
  intros hk Hn. change (w_hs (archs_remove_handler _ h1)) with hs. rewrite (remove_get_other k (w_hs w1) h1 hs hk S1 Er); [|intros ->; apply Hn; now left].
  exact (sview_get hview3 (w_hs w) (w_hs w1) hk Hv).
Qed.

Lemma hs_keep_inv w' w ks : hs_keep w' w ks -> True. Proof. auto. Qed.

Lemma remove_handlers_keep ks : forall w, HInv w -> DI w -> hs_keep (res_world (remove_handlers beh ks w)) w ks.
Proof.
  induction ks as [|k t IH]; intros w HH HD; cbn [remove_handlers]; [apply hs_keep_hv3; reflexivity|].
  pose proof (remove_handler_keep k w (proj1 HH)) as H1.
  pose proof (remove_handler_keeps beh (DI_layer beh) k w (proj2 (DI_layer_J beh w) HD)) as [J1 _].
  destruct (remove_handler beh k w) as [b w1|f w1]; cbn [rbind res_world] in *; [|eapply hs_keep_weaken; [|exact H1]; intros x [<-|[]]; now left].
  apply -> (DI_layer_J beh) in J1. eapply hs_keep_weaken; [|eapply hs_keep_trans; [exact (IH w1 (proj2 (proj2 (DI_regs _ J1))) J1)|exact H1]].
  intros x Hin. apply in_app_or in Hin as [Hin|[<-|[]]]; [now right|now left].
Qed.

(* C15: removing a handler *)
Theorem remove_handler_exact k w : ZI w ->
  match remove_handler beh k w with
  | ROk _ w' => sm_get k (w_hs w') = None /\ hs_keep w' w [k]
  | RFail _ _ => True end.
Proof.
  intros [[HD HS] _]. pose proof (remove_handler_keep k w (proj1 (proj2 (proj2 (DI_regs _ HD))))) as Hk. pose proof (remove_handler_gone beh k w) as G.
  destruct (remove_handler beh k w) as [b w'|f w']; [|exact I]. split; [exact (G b w' (conj HD HS) eq_refl)|exact Hk].
Qed.

Lemma in_order_live w h : In h (handlers_in_order w) -> exists hk, hlive w hk h.
Proof.
  unfold handlers_in_order. intros Hin. apply in_flat_map in Hin as ([o hk] & _ & Hin). cbn [snd] in Hin.
  destruct (sm_get hk (w_hs w)) as [h0|] eqn:E; [|destruct Hin]. destruct Hin as [<-|[]]. exists hk. exact E.
Qed.

Lemma users_removed (P : hinfo -> bool) w1 w2 w3 :
  (forall h1 h2, hstat h2 = hstat h1 -> P h2 = P h1) -> HInv w1 ->
  hs_le w2 w1 -> hs_keep w2 w1 (map h_key (filter P (handlers_in_order w1))) ->
  (forall k, In k (map h_key (filter P (handlers_in_order w1))) -> sm_get k (w_hs w2) = None) ->
  w_hs w3 = w_hs w2 ->
  forall hk, (exists h', hlive w3 hk h') <-> (exists h, hlive w1 hk h /\ P h = false).
Proof.
  intros HPs HH Hle Hkeep Hgone E3 hk. unfold hlive. rewrite E3. split.
  - intros (h' & Hl). destruct (Hle hk h' Hl) as (h & Hl1 & Hv). exists h. split; [exact Hl1|].
    assert (Es : hstat h' = hstat h) by (unfold hview3 in Hv; congruence). transitivity (P h'); [symmetry; exact (HPs h h' Es)|]; exact (survivors w1 w2 P HH Hle Hgone HPs hk h' Hl).
  - intros (h & Hl1 & Hp).
    assert (Hn : ~ In hk (map h_key (filter P (handlers_in_order w1)))).
    { intros Hin. apply in_map_iff in Hin as (h1 & Hk1 & Hf). apply filter_In in Hf as [Hin Hp1]. destruct (in_order_live w1 h1 Hin) as (hk1 & Hl2).
      destruct HH as (_ & H1 & _). destruct (H1 hk1 h1 Hl2) as (Hk & _). assert (hk1 = hk) by congruence. subst hk1. unfold hlive in *. congruence. }
    specialize (Hkeep hk Hn). unfold hlive in Hl1. rewrite Hl1 in Hkeep. destruct (sm_get hk (w_hs w2)) as [h2|]; [eauto|discriminate].
Qed.

(* the handlers that survive the removal of the users of an event or component, [w1] being the world after the
   notification and [w3] one with the handlers of [w2]: exactly those that were not users, each unchanged *)
Lemma users_exact (f : hinfo -> bool) w w1 w2 w3 : hv3 w1 = hv3 w -> EI w1 ->
  remove_handlers beh (map h_key (filter (fun h => f (hstat h)) (handlers_in_order w1))) w1 = ROk tt w2 -> w_hs w3 = w_hs w2 ->
  forall hk, (exists h', hlive w3 hk h') <-> (exists h, hlive w hk h /\ f (hstat h) = false).
Proof.
  intros Hv HE E E3 hk. set (ks := map h_key (filter (fun h => f (hstat h)) (handlers_in_order w1))) in *.
  pose proof (proj2 (proj2 (DI_regs _ (proj1 HE)))) as HH.
  pose proof (hs_le_remove_handlers beh ks w1) as Hle. pose proof (remove_handlers_keep ks w1 HH (proj1 HE)) as Hkeep. rewrite E in Hle, Hkeep.
  rewrite (users_removed (fun h => f (hstat h)) w1 w2 w3 (fun h1 h2 Es => f_equal f Es) HH Hle Hkeep (remove_handlers_gone beh ks w1 w2 HE E) E3 hk).
  (* the notification changed no handler's static part *)
  pose proof (sview_get hview3 (w_hs w) (w_hs w1) hk Hv) as Eg. unfold hlive.
  split; intros (h & Hl & Hp); rewrite Hl in Eg; [destruct (sm_get hk (w_hs w)) as [h0|]|destruct (sm_get hk (w_hs w1)) as [h0|]]; try discriminate;
    exists h0; (split; [reflexivity|]); rewrite <- Hp; unfold hview3 in Eg; cbn in Eg; congruence.
Qed.

(* C15: removing a global event removes exactly the handlers that receive it or can send it *)
Theorem remove_global_event_exact k w w' : ZI w -> remove_global_event beh k w = ROk true w' ->
  sm_get k (w_gev w') = None /\
  forall hk, (exists h', hlive w' hk h') <-> (exists h, hlive w hk h /\ recvid_eqb (h_recv h) (RvGlobal k) || smem (fst k) (h_sent_g h) = false).
Proof.
  intros HZ E. apply (ZI_layer_J beh) in HZ. destruct (remove_global_event_inv beh (ZI_layer beh) k w w' HZ E) as (w1 & w2 & info & m & E1 & J1 & E2 & J2 & Er & ->).
  apply -> (ZI_layer_J beh) in J1. apply -> (ZI_layer_J beh) in J2. split; [exact (remove_get_gone _ _ _ _ (proj1 (DI_regs _ (proj1 (proj1 J2)))) Er)|].
  pose proof (hv3_send_global beh G_RMGE (mkEv 0 0 k) w) as Hv. rewrite E1 in Hv.
  exact (users_exact (fun h => recvid_eqb (h_recv h) (RvGlobal k) || smem (fst k) (h_sent_g h)) w w1 w2 _ Hv (proj1 J1) E2 eq_refl).
Qed.

Theorem remove_targeted_event_exact k w w' : ZI w -> remove_targeted_event beh k w = ROk true w' ->
  sm_get k (w_tev w') = None /\
  forall hk, (exists h', hlive w' hk h') <-> (exists h, hlive w hk h /\ recvid_eqb (h_recv h) (RvTargeted k) || smem (fst k) (h_sent_t h) = false).
Proof.
  intros HZ E. apply (ZI_layer_J beh) in HZ. destruct (remove_targeted_event_inv beh (ZI_layer beh) k w w' HZ E) as (w1 & w2 & info & m & E1 & J1 & E2 & J2 & Er & ->).
  apply -> (ZI_layer_J beh) in J1. apply -> (ZI_layer_J beh) in J2. pose proof (hv3_send_global beh G_RMTE (mkEv 0 0 k) w) as Hv. rewrite E1 in Hv.
  assert (E4 : w_tev (tev_exit_world w2 k info m) = m /\ w_hs (tev_exit_world w2 k info m) = w_hs w2) by (unfold tev_exit_world; cbv zeta; destruct (e_kind info); split; reflexivity).
  split; [rewrite (proj1 E4); exact (remove_get_gone _ _ _ _ (proj1 (proj2 (DI_regs _ (proj1 (proj1 J2))))) Er)|].
  exact (users_exact (fun h => recvid_eqb (h_recv h) (RvTargeted k) || smem (fst k) (h_sent_t h)) w w1 w2 _ Hv (proj1 J1) E2 (proj2 E4)).
Qed.

(* C14: what is left after remove_component *)
Lemma gbi_none_fold_upd (skip : N -> bool) (f : cinfo -> cinfo) cs i : forall m, get_by_index m i = None -> get_by_index (fold_upd skip f cs m) i = None.
Proof.
  induction cs as [|c cs IH]; intros m H; cbn [fold_upd fold_left]; [exact H|]. apply IH. destruct (skip c); [exact H|].
  rewrite gbi_upd. destruct (i =? c); [now rewrite H|exact H].
Qed.
Lemma gbi_none_rc_step cidx ctag w ai i : get_by_index (w_comps w) i = None -> get_by_index (w_comps (rc_step cidx ctag w ai)) i = None.
Proof. intros H. apply rc_step_cases; [now intros _|]. intros a D _. now apply gbi_none_fold_upd. Qed.
Lemma gbi_none_archs_remove_component cidx ctag w l i : get_by_index (w_comps w) i = None -> get_by_index (w_comps (archs_remove_component w cidx ctag l)) i = None.
Proof. apply (arc_keeps cidx ctag (fun w0 => get_by_index (w_comps w0) i = None)); [|auto]. intros w0 ai a D _. apply gbi_none_fold_upd. Qed.

Theorem remove_component_exact k w w' : ZI w -> remove_component beh k w = ROk true w' ->
  get_by_index (w_comps w') (fst k) = None /\
  (forall hk h, hlive w' hk h -> smem (fst k) (h_refcomps h) = false) /\
  (forall ai a, arch_at w' ai = Some a -> ~ In (fst k) (a_comps a)) /\
  (forall i ek info, get_by_index (w_tev w') i = Some (ek, info) -> e_kind info <> KInsert (fst k) /\ e_kind info <> KRemove (fst k)).
Proof.
  intros HZ E. destruct (remove_component_ZOK beh k w HZ) as (Zf & _ & _). rewrite E in Zf. cbn [res_world] in Zf. apply (ZI_layer_J beh) in HZ.
  destruct (remove_component_inv beh (ZI_layer beh) k w w' HZ E) as (w1 & dk & w2 & w3 & w4 & ci & w5 & ci' & m & _ & _ & _ & _ & _ & J3 & E4 & _ & _ & E5 & _ & Er & ->).
  apply -> (ZI_layer_J beh) in J3.
  assert (Hc : get_by_index (w_comps (comp_exit_world w5 k ci' m)) (fst k) = None).
  { unfold comp_exit_world. change (w_comps (refresh_cursor ?x)) with (w_comps x). apply gbi_none_archs_remove_component. exact (gbi_remove_self _ _ _ _ Er). }
  split; [exact Hc|]. split; [|destruct Zf as [[HD _] _]; destruct (DI_parts _ HD) as ([_ (_ & _ & _ & K2 & K3 & _)] & _); split].
  - intros hk h Hl. assert (Hle : hs_le (comp_exit_world w5 k ci' m) w4).
    { eapply hs_le_trans; [apply hs_le_hs; reflexivity|]. eapply hs_le_trans; [apply hs_le_archs_remove_component|].
      eapply hs_le_trans; [now apply hs_le_hs|]. pose proof (hs_le_remove_tevents beh (c_ins ci ++ c_rem ci) w4) as X. now rewrite E5 in X. }
    destruct (Hle hk h Hl) as (h4 & Hl4 & Hv). assert (Es : hstat h = hstat h4) by (unfold hview3 in Hv; congruence).
    change (smem (fst k) (h_refcomps (hstat h)) = false). rewrite Es. exact (users_gone beh (fun h => smem (fst k) (h_refcomps h)) w3 w4 (proj1 J3) E4 hk h4 Hl4).
  - intros ai a Ha Hin. exact (K2 ai a (fst k) Ha Hin Hc).
  - intros i ek info Hg. split; intros Hk; [destruct (K3 i ek info (fst k) Hg (or_introl Hk)) as (kc & ci0 & X & _)|destruct (K3 i ek info (fst k) Hg (or_intror Hk)) as (kc & ci0 & X & _)]; congruence.
Qed.
End U.

(* C02: World::get reads the storage map *)
Theorem op_get_is_abs e ktag w : StoreInv w ->
  op_get e ktag w = inr (match alookup ktag (w_cby w) with Some ck => abs w e (fst ck) | None => None end).
Proof. exact (op_get_abs e ktag w). Qed.
Theorem reachable_get_is_abs beh fuel p ops e ktag : let w := fold_left (run_top_all beh) ops (world0 fuel p) in
  op_get e ktag w = inr (match alookup ktag (w_cby w) with Some ck => abs w e (fst ck) | None => None end).
Proof. cbn zeta. apply op_get_is_abs, ZI_store, reachable_ZI. Qed.

(* C08 / C15: the handlers a delivery runs listen for exactly the delivered event (not merely its index) *)
Theorem delivered_receive_this_event w it hk : ZI w -> In hk (delivered_to w it) ->
  exists h ek info, hlive w hk h /\
    (if qi_targeted it then h_recv h = RvTargeted ek /\ get_by_index (w_tev w) (qi_idx it) = Some (ek, info)
     else h_recv h = RvGlobal ek /\ get_by_index (w_gev w) (qi_idx it) = Some (ek, info)).
Proof.
  intros [[HD _] (_ & _ & _ & HR)] Hin. destruct (DI_parts _ HD) as (_ & HH & _ & _).
  apply (proj2 (delivered_to_exact w it HH)) in Hin. destruct (qi_targeted it).
  - destruct Hin as (loc & a & h & ek & _ & _ & Hl & Hrv & Hi & _). pose proof (HR hk h Hl) as Hr. unfold recv_ok in Hr. rewrite Hrv in Hr.
    destruct (sm_get ek (w_tev w)) as [info|] eqn:E; [|tauto]. exists h, ek, info. split; [exact Hl|]. split; [exact Hrv|]. rewrite <- Hi. now apply gbi_of_get.
  - destruct Hin as (h & ek & Hl & Hrv & Hi). pose proof (HR hk h Hl) as Hr. unfold recv_ok in Hr. rewrite Hrv in Hr.
    destruct (sm_get ek (w_gev w)) as [info|] eqn:E; [|tauto]. exists h, ek, info. split; [exact Hl|]. split; [exact Hrv|]. rewrite <- Hi. now apply gbi_of_get.
Qed.
