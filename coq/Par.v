(* Par.v : parallel iteration of src/fetch.rs:765-830 as arbitrary split trees.
   ParIter drives  arch_states.par_iter().zip_eq(arch_indices)
                     .flat_map(|(state, index)| (0..entity_count(index)).into_par_iter().map(|row| get(state,row)))
   rayon splits an indexed producer at arbitrary points, recursively, and hands the leaves to
   arbitrary threads.  A producer is a finite sequence; a split tree chooses the split points;
   whatever the trees, the leaves partition the sequence (modelled premise: rayon's
   slice/range/zip/map producers split as `split_at`, its flat_map drives each outer item's
   inner iterator completely). *)
From Coq Require Import List Arith Lia Permutation.
Import ListNotations.

Section Par.
Context {A B : Type}.

Inductive tree := Leaf | Node (i : nat) (l r : tree).

(* leaves of an indexed producer under a split tree *)
Fixpoint leaves {X} (t : tree) (p : list X) : list (list X) :=
  match t with
  | Leaf => [p]
  | Node i l r => leaves l (firstn i p) ++ leaves r (skipn i p)
  end.

Theorem leaves_partition {X} (t : tree) : forall p : list X, concat (leaves t p) = p.
Proof.
  induction t as [|i l IHl r IHr]; intros p; cbn [leaves concat]; [apply app_nil_r|].
  rewrite concat_app, IHl, IHr. apply firstn_skipn.
Qed.

(* zip_eq of two slices splits both at the same index *)
Lemma combine_skipn {X Y} (a : list X) (b : list Y) i : skipn i (combine a b) = combine (skipn i a) (skipn i b).
Proof.
  revert a b. induction i as [|i IH]; intros [|x a] [|y b]; cbn; try reflexivity.
  - now destruct (skipn i a).
  - apply IH.
Qed.
Fixpoint zip_leaves {X Y} (t : tree) (a : list X) (b : list Y) : list (list (X * Y)) :=
  match t with
  | Leaf => [combine a b]
  | Node i l r => zip_leaves l (firstn i a) (firstn i b) ++ zip_leaves r (skipn i a) (skipn i b)
  end.
Lemma zip_leaves_eq {X Y} (t : tree) : forall (a : list X) (b : list Y), zip_leaves t a b = leaves t (combine a b).
Proof.
  induction t as [|i l IHl r IHr]; intros a b; cbn; [reflexivity|].
  now rewrite IHl, IHr, combine_firstn, combine_skipn.
Qed.

(* the inner iterator of one (state, index) pair: rows 0..n mapped through `get` *)
Definition inner (get : A -> nat -> B) (count : A -> nat) (s : A) : list B := map (get s) (seq 0 (count s)).

(* a parallel run: an outer tree over the archetype list, an inner tree per archetype, and the
   items each leaf visits, in tree order *)
Definition par_run (get : A -> nat -> B) (count : A -> nat) (outer : tree) (inner_tree : A -> tree) (states : list A)
  : list (list B) :=
  flat_map (fun leaf => flat_map (fun s => leaves (inner_tree s) (inner get count s)) leaf) (leaves outer states).

Definition seq_run (get : A -> nat -> B) (count : A -> nat) (states : list A) : list B :=
  flat_map (inner get count) states.

Lemma flat_map_concat {X Y} (f : X -> list Y) (l : list X) : flat_map f l = concat (map f l).
Proof. apply flat_map_concat_map. Qed.

(* C19: for every outer split tree and every family of inner split trees, the tasks together
   visit exactly the items of sequential iteration, each exactly once and in an order that is
   a rearrangement of it by whole leaves *)
Theorem par_visits_exactly_sequential get count outer inner_tree states :
  concat (par_run get count outer inner_tree states) = seq_run get count states.
Proof.
  unfold par_run, seq_run.
  rewrite <- (leaves_partition outer states) at 2.
  induction (leaves outer states) as [|leaf ls IH]; cbn [flat_map concat]; [reflexivity|].
  rewrite concat_app, IH, flat_map_app. f_equal. clear.
  induction leaf as [|s leaf IH]; cbn [flat_map concat]; [reflexivity|].
  rewrite concat_app, IH, leaves_partition. reflexivity.
Qed.

(* whatever order the scheduler runs the leaves in (any permutation of the leaf list), the
   multiset of visited items is that of sequential iteration *)
Lemma concat_perm {X} (l l' : list (list X)) : Permutation l l' -> Permutation (concat l) (concat l').
Proof.
  induction 1; cbn.
  - constructor.
  - now apply Permutation_app_head.
  - rewrite !app_assoc. apply Permutation_app_tail, Permutation_app_comm.
  - eapply Permutation_trans; eauto.
Qed.
Theorem par_any_schedule get count outer inner_tree states schedule :
  Permutation schedule (par_run get count outer inner_tree states) ->
  Permutation (concat schedule) (seq_run get count states).
Proof.
  intros H. rewrite <- (par_visits_exactly_sequential get count outer inner_tree states). now apply concat_perm.
Qed.

(* hence: if sequential iteration yields no item twice, no two tasks receive the same item *)
Corollary par_no_item_twice get count outer inner_tree states schedule :
  Permutation schedule (par_run get count outer inner_tree states) ->
  NoDup (seq_run get count states) -> NoDup (concat schedule).
Proof.
  intros H Hnd. eapply Permutation_NoDup; [apply Permutation_sym, (par_any_schedule get count outer inner_tree states schedule H)|exact Hnd].
Qed.
End Par.
