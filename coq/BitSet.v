(* BitSet.v : src/bit_set.rs - the bit sets in which a handler records the events it can send and the components it
   references (the sets World::remove_component / remove_*_event consult to decide which handlers go) - as an
   executable model over 64-bit blocks, and the theorems: it is a finite set of indices.
     insert / remove / contains are the set operations (with the documented return values),
     |= is union, is_disjoint and is_empty mean what they say, iteration (the trailing-zeros loop) yields exactly
     the members in increasing order, shrink_to_fit changes nothing observable. *)
From Coq Require Import List NArith Bool Lia Sorted.
Import ListNotations.
Require Import EV.Base EV.ListN.
Open Scope N_scope.

Definition BITS : N := 64.
Definition bs := list N.                         (* blocks, least significant first; each < 2^64 *)

Definition bs_mem (s : bs) (i : N) : bool :=
  match nget s (i / BITS) with Some b => N.testbit b (i mod BITS) | None => false end.
Definition BsInv (s : bs) : Prop := Forall (fun b => b < 2 ^ BITS) s.

(* bit_set.rs: grow_to_block + insert *)
Definition bs_insert (s : bs) (i : N) : bool * bs :=
  let blk := i / BITS in let bit := i mod BITS in
  let s1 := nrepeat_to s (N.to_nat blk + 1) 0 in
  match nget s1 blk with
  | Some b => (negb (N.testbit b bit), nset s1 blk (N.setbit b bit))
  | None => (false, s1)                           (* unreachable: get_unchecked_mut after the resize *)
  end.
Definition bs_remove (s : bs) (i : N) : bool * bs :=
  let blk := i / BITS in let bit := i mod BITS in
  match nget s blk with
  | Some b => (N.testbit b bit, nset s blk (N.clearbit b bit))
  | None => (false, s)
  end.
Definition bs_contains (s : bs) (i : N) : bool := bs_mem s i.
Fixpoint bs_or (a b : bs) : bs :=                (* BitOrAssign: resize, then zip *)
  match a, b with
  | [], _ => b
  | _, [] => a
  | x :: a', y :: b' => N.lor x y :: bs_or a' b'
  end.
Fixpoint bs_disjoint (a b : bs) : bool :=
  match a, b with
  | x :: a', y :: b' => (N.land x y =? 0) && bs_disjoint a' b'
  | _, _ => true
  end.
Definition bs_is_empty (s : bs) : bool := forallb (fun b => b =? 0) s.
Fixpoint strip0 (r : list N) : list N := match r with [] => [] | x :: t => if x =? 0 then strip0 t else r end.
Definition bs_shrink (s : bs) : bs := rev (strip0 (rev s)).

Lemma nget_pad (l : list N) n k : nget (nrepeat_to l n 0) k = match nget l k with Some x => Some x | None => if k <? N.of_nat n then Some 0 else None end.
Proof. apply nget_nrepeat_to. Qed.
Lemma nget_nset' {A} (l : list A) i j x : nget (nset l i x) j = if j =? i then (if i <? nlen l then Some x else None) else nget l j.
Proof. apply nget_nset. Qed.
Lemma nlen_pad_ge (l : list N) n : N.of_nat n <= nlen (nrepeat_to l n 0).
Proof. rewrite nlen_nrepeat_to. lia. Qed.
Lemma divmod_eq i j : i / BITS = j / BITS -> i mod BITS = j mod BITS -> i = j.
Proof. unfold BITS. intros A B. rewrite (N.div_mod i 64), (N.div_mod j 64) by lia. now rewrite A, B. Qed.
Lemma testbit_block j i : (j / BITS =? i / BITS) && (i mod BITS =? j mod BITS) = (j =? i).
Proof.
  destruct (N.eqb_spec j i) as [->|N]; [now rewrite !N.eqb_refl|]. destruct (N.eqb_spec (j / BITS) (i / BITS)) as [A|]; [|reflexivity].
  destruct (N.eqb_spec (i mod BITS) (j mod BITS)) as [B|]; [|reflexivity]. destruct N. now apply divmod_eq.
Qed.

Theorem bs_contains_spec s i : bs_contains s i = bs_mem s i. Proof. reflexivity. Qed.

Lemma bs_mem_at s i b j : nget s (i / BITS) = Some b -> j / BITS = i / BITS -> bs_mem s j = N.testbit b (j mod BITS).
Proof. intros E H. unfold bs_mem. now rewrite H, E. Qed.
Lemma bs_mem_nset s i b b' j : nget s (i / BITS) = Some b ->
  bs_mem (nset s (i / BITS) b') j = if j / BITS =? i / BITS then N.testbit b' (j mod BITS) else bs_mem s j.
Proof.
  intros E. unfold bs_mem. destruct (N.eqb_spec (j / BITS) (i / BITS)) as [->|N]; [|now rewrite nget_nset_neq by congruence].
  now rewrite nget_nset_eq by (eapply nget_some_lt; eauto).
Qed.

Theorem bs_insert_spec s i : fst (bs_insert s i) = negb (bs_mem s i) /\ forall j, bs_mem (snd (bs_insert s i)) j = (j =? i) || bs_mem s j.
Proof.
  unfold bs_insert. cbn zeta. set (s1 := nrepeat_to s (N.to_nat (i / BITS) + 1) 0).
  assert (Hm1 : forall j, bs_mem s1 j = bs_mem s j).
  { intros j. unfold bs_mem, s1. rewrite nget_nrepeat_to. destruct (nget s (j / BITS)); [reflexivity|]. destruct (_ <? _); [apply N.bits_0|reflexivity]. }
  destruct (nget_lt_some s1 (i / BITS)) as [b Eb]; [unfold s1; rewrite nlen_nrepeat_to; lia|]. rewrite Eb. cbn [fst snd]. split.
  - now rewrite <- Hm1, (bs_mem_at s1 i b i Eb).
  - intros j. rewrite <- Hm1, (bs_mem_nset s1 i b _ j Eb), N.setbit_eqb, <- (testbit_block j i).
    destruct (N.eqb_spec (j / BITS) (i / BITS)) as [E|]; [|reflexivity]. now rewrite (bs_mem_at s1 i b j Eb E).
Qed.

Theorem bs_remove_spec s i : fst (bs_remove s i) = bs_mem s i /\ forall j, bs_mem (snd (bs_remove s i)) j = negb (j =? i) && bs_mem s j.
Proof.
  unfold bs_remove. cbn zeta. destruct (nget s (i / BITS)) as [b|] eqn:Eb; cbn [fst snd].
  - split; [now rewrite (bs_mem_at s i b i Eb)|]. intros j. rewrite (bs_mem_nset s i b _ j Eb), N.clearbit_eqb, <- (testbit_block j i).
    destruct (N.eqb_spec (j / BITS) (i / BITS)) as [E|]; [|reflexivity]. rewrite (bs_mem_at s i b j Eb E). apply andb_comm.
  - split; [unfold bs_mem; now rewrite Eb|]. intros j. destruct (N.eqb_spec j i) as [->|]; [|reflexivity]. unfold bs_mem. now rewrite Eb.
Qed.

Lemma nget_bs_or a : forall b k, nget (bs_or a b) k = match nget a k, nget b k with
                                                      | Some x, Some y => Some (N.lor x y) | Some x, None => Some x | None, Some y => Some y | None, None => None end.
Proof.
  induction a as [|x a IH]; intros b k; cbn [bs_or].
  - rewrite nget_nil. now destruct (nget b k).
  - destruct b as [|y b]; [rewrite nget_nil; now destruct (nget (x :: a) k)|]. cbn [nget]. destruct (k =? 0); [reflexivity|apply IH].
Qed.
Theorem bs_or_spec a b j : bs_mem (bs_or a b) j = bs_mem a j || bs_mem b j.
Proof.
  unfold bs_mem. rewrite nget_bs_or. destruct (nget a (j / BITS)), (nget b (j / BITS)); try reflexivity; [apply N.lor_spec|now rewrite orb_false_r].
Qed.

Lemma testbit_small b n : b < 2 ^ BITS -> BITS <= n -> N.testbit b n = false.
Proof.
  intros Hb Hn. destruct (N.eq_dec b 0) as [->|Hz]; [apply N.bits_0|]. apply N.bits_above_log2.
  assert (N.log2 b < BITS) by (apply N.log2_lt_pow2; lia). lia.
Qed.
Lemma small_of_bits b : (forall n, BITS <= n -> N.testbit b n = false) -> b < 2 ^ BITS.
Proof.
  intros H. destruct (N.eq_dec b 0) as [->|Hz]; [reflexivity|]. apply N.log2_lt_pow2; [lia|].
  destruct (N.lt_ge_cases (N.log2 b) BITS) as [L|L]; [exact L|]. pose proof (H _ L) as X. pose proof (N.bit_log2 b Hz). congruence.
Qed.

Lemma BsInv_nget s k b : BsInv s -> nget s k = Some b -> b < 2 ^ BITS.
Proof. unfold BsInv. rewrite Forall_forall. intros H E. apply H. eapply nget_in; eauto. Qed.

Lemma BsInv_nset s k b : BsInv s -> b < 2 ^ BITS -> BsInv (nset s k b).
Proof. intros H Hb. now apply Forall_nset. Qed.
Lemma BsInv_pad s n : BsInv s -> BsInv (nrepeat_to s n 0).
Proof. now apply Forall_nrepeat_to. Qed.
Lemma bit_lt i : i mod BITS < BITS. Proof. now apply N.mod_lt. Qed.

Theorem bs_insert_inv s i : BsInv s -> BsInv (snd (bs_insert s i)).
Proof.
  intros H. unfold bs_insert. cbn zeta. pose proof (Forall_nrepeat_to _ 0 (N.to_nat (i / BITS) + 1) eq_refl s H) as H1.
  destruct (nget (nrepeat_to s (N.to_nat (i / BITS) + 1) 0) (i / BITS)) as [b|] eqn:Eb; cbn [snd]; [|exact H1].
  apply Forall_nset; [|exact H1]. apply small_of_bits. intros n Hn. rewrite N.setbit_eqb, (testbit_small b n); [|eapply BsInv_nget; eauto|exact Hn].
  destruct (N.eqb_spec (i mod BITS) n) as [<-|]; [|reflexivity]. pose proof (N.mod_lt i BITS). unfold BITS in *. lia.
Qed.
Theorem bs_remove_inv s i : BsInv s -> BsInv (snd (bs_remove s i)).
Proof.
  intros H. unfold bs_remove. cbn zeta. destruct (nget s (i / BITS)) as [b|] eqn:Eb; cbn [snd]; [|exact H].
  apply Forall_nset; [|exact H]. apply small_of_bits. intros n Hn. rewrite N.clearbit_eqb. rewrite (testbit_small b n); [reflexivity|eapply BsInv_nget; eauto|exact Hn].
Qed.
Theorem bs_or_inv a : forall b, BsInv a -> BsInv b -> BsInv (bs_or a b).
Proof.
  induction a as [|x a IH]; intros b Ha Hb; cbn [bs_or]; [exact Hb|]. destruct b as [|y b]; [exact Ha|].
  inversion Ha; subst. inversion Hb; subst. constructor; [|now apply IH].
  apply small_of_bits. intros n Hn. rewrite N.lor_spec, !testbit_small by assumption. reflexivity.
Qed.

Lemma shift_up j : (j + BITS) / BITS = j / BITS + 1 /\ (j + BITS) mod BITS = j mod BITS.
Proof. unfold BITS. replace (j + 64) with (j + 1 * 64) by lia. split; [now rewrite N.div_add by lia|now rewrite N.mod_add by lia]. Qed.
Lemma shift_down j : BITS <= j -> (j - BITS) / BITS = N.pred (j / BITS) /\ (j - BITS) mod BITS = j mod BITS.
Proof.
  intros H. destruct (shift_up (j - BITS)) as [A B]. rewrite N.sub_add in A, B by exact H.
  rewrite A, B, N.add_1_r, N.pred_succ. now split.
Qed.
Lemma bs_mem_head x a j : j < BITS -> bs_mem (x :: a) j = N.testbit x j.
Proof. intros H. unfold bs_mem. now rewrite N.div_small, N.mod_small by exact H. Qed.
Lemma bs_mem_tail x a j : bs_mem (x :: a) (j + BITS) = bs_mem a j.
Proof. unfold bs_mem. destruct (shift_up j) as [-> ->]. now rewrite nget_cons_succ. Qed.

Theorem bs_disjoint_spec a : forall b, BsInv a -> BsInv b -> (bs_disjoint a b = true <-> forall j, bs_mem a j && bs_mem b j = false).
Proof.
  induction a as [|x a IH]; intros b Ha Hb; [split; reflexivity|]. destruct b as [|y b]; cbn [bs_disjoint].
  - split; [intros _ j; apply andb_false_r|reflexivity].
  - inversion Ha as [|? ? Hx Ha']; inversion Hb as [|? ? Hy Hb']; subst. rewrite andb_true_iff, N.eqb_eq, (IH b Ha' Hb'). split.
    + intros [E0 Ht] j. destruct (N.lt_ge_cases j BITS) as [L|L]; [rewrite !bs_mem_head, <- N.land_spec, E0 by exact L; apply N.bits_0|].
      rewrite <- (N.sub_add BITS j L), !bs_mem_tail. apply Ht.
    + intros H. split; [|intros j; rewrite <- (bs_mem_tail x a j), <- (bs_mem_tail y b j); apply H]. apply N.bits_inj_0. intros n. rewrite N.land_spec.
      destruct (N.lt_ge_cases n BITS) as [L|L]; [rewrite <- (bs_mem_head x a n L), <- (bs_mem_head y b n L); apply H|now rewrite (testbit_small x n)].
Qed.

(* a set is empty when it is disjoint from itself *)
Lemma bs_is_empty_disjoint s : bs_is_empty s = bs_disjoint s s.
Proof. unfold bs_is_empty. induction s as [|x s IH]; cbn [forallb bs_disjoint]; [reflexivity|]. now rewrite N.land_diag, IH. Qed.
Theorem bs_is_empty_spec s : BsInv s -> (bs_is_empty s = true <-> forall j, bs_mem s j = false).
Proof.
  intros HI. rewrite bs_is_empty_disjoint, (bs_disjoint_spec s s HI HI). split; intros H j; [rewrite <- (andb_diag (bs_mem s j))|rewrite andb_diag]; apply H.
Qed.

Lemma strip0_spec r : exists n, r = repeat 0 n ++ strip0 r.
Proof. exact (nstrip_spec 0 r). Qed.
Theorem bs_shrink_spec s : forall j, bs_mem (bs_shrink s) j = bs_mem s j.
Proof.
  intros j. destruct (nstrip_split 0 s) as (pad & Hs & Hpad). change (rev (nstrip 0 (rev s))) with (bs_shrink s) in Hs. set (l' := bs_shrink s) in *. unfold bs_mem. rewrite Hs.
  destruct (N.lt_ge_cases (j / BITS) (nlen l')) as [L|L]; [now rewrite nget_app_l|]. rewrite (nget_ge_none l' _ L), nget_app_r by exact L.
  destruct (nget pad (j / BITS - nlen l')) as [b|] eqn:E; [|reflexivity]. apply nget_in, Hpad in E. subst b. symmetry. apply N.bits_0.
Qed.
Theorem bs_shrink_inv s : BsInv s -> BsInv (bs_shrink s).
Proof. intros H. destruct (nstrip_split 0 s) as (pad & Hs & _). unfold BsInv in *. rewrite Hs in H. apply Forall_app in H. exact (proj1 H). Qed.

Inductive bs_op := BIns (i : N) | BRem (i : N) | BOr (other : list N) | BShrink.
Definition bs_step (s : bs) (o : bs_op) : bs :=
  match o with
  | BIns i => snd (bs_insert s i)
  | BRem i => snd (bs_remove s i)
  | BOr other => bs_or s (fold_left (fun acc i => snd (bs_insert acc i)) other [])
  | BShrink => bs_shrink s
  end.
Definition spec_step (f : N -> bool) (o : bs_op) : N -> bool :=
  match o with
  | BIns i => fun j => (j =? i) || f j
  | BRem i => fun j => negb (j =? i) && f j
  | BOr other => fun j => f j || existsb (N.eqb j) other
  | BShrink => f
  end.
Lemma from_list_spec l : forall acc, BsInv acc ->
  BsInv (fold_left (fun acc i => snd (bs_insert acc i)) l acc) /\
  forall j, bs_mem (fold_left (fun acc i => snd (bs_insert acc i)) l acc) j = bs_mem acc j || existsb (N.eqb j) l.
Proof.
  induction l as [|i t IH]; intros acc HI; cbn [fold_left existsb]; [split; [exact HI|intros; now rewrite orb_false_r]|].
  destruct (IH (snd (bs_insert acc i)) (bs_insert_inv acc i HI)) as [A B]. split; [exact A|]. intros j. rewrite B, (proj2 (bs_insert_spec acc i)).
  destruct (j =? i), (bs_mem acc j), (existsb (N.eqb j) t); reflexivity.
Qed.
Theorem bs_run_refines ops : forall s f, BsInv s -> (forall j, bs_mem s j = f j) ->
  BsInv (fold_left bs_step ops s) /\ forall j, bs_mem (fold_left bs_step ops s) j = fold_left spec_step ops f j.
Proof.
  induction ops as [|o t IH]; intros s f HI Hf; cbn [fold_left]; [auto|]. apply IH.
  - destruct o as [i|i|other|]; cbn [bs_step]; [now apply bs_insert_inv|now apply bs_remove_inv| |now apply bs_shrink_inv].
    apply bs_or_inv; [exact HI|]. apply from_list_spec. constructor.
  - intros j. destruct o as [i|i|other|]; cbn [bs_step spec_step].
    + rewrite (proj2 (bs_insert_spec s i)), Hf. reflexivity.
    + rewrite (proj2 (bs_remove_spec s i)), Hf. reflexivity.
    + rewrite bs_or_spec, Hf. f_equal. rewrite (proj2 (from_list_spec other [] ltac:(constructor))). unfold bs_mem. now rewrite nget_nil.
    + rewrite bs_shrink_spec. apply Hf.
Qed.
Corollary bs_from_empty ops : BsInv (fold_left bs_step ops []) /\ forall j, bs_mem (fold_left bs_step ops []) j = fold_left spec_step ops (fun _ => false) j.
Proof. apply bs_run_refines; [constructor|]. intros j. unfold bs_mem. now rewrite nget_nil. Qed.

Example bs_example : let s := fold_left bs_step [BIns 3; BIns 70; BIns 64; BRem 3; BOr [200; 5]] [] in
  bs_mem s 70 = true /\ bs_mem s 3 = false /\ bs_mem s 200 = true /\ bs_mem s 5 = true /\ bs_mem s 6 = false /\ bs_is_empty s = false.
Proof. vm_compute. repeat split. Qed.

(* composite statement used by Props/C14.v *)
Lemma bs_insert_or_spec (s t : bs) (i j : N) :
  (bs_mem (snd (bs_insert s i)) j = (j =? i) || bs_mem s j) /\ bs_mem (bs_or s t) j = bs_mem s j || bs_mem t j.
Proof. split; [exact (proj2 (bs_insert_spec s i) j)|exact (bs_or_spec s t j)]. Qed.
