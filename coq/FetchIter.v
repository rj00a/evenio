(* FetchIter.v : the state machine of fetch::Iter (src/fetch.rs:630-705): a cursor (position in the cache,
   row, length of the current archetype) over the fetcher cache, with its two unchecked steps made explicit.
   The cache is abstracted to the entity counts of its archetypes, in cache (= SparseMap dense) order.
     - next() yields (position, row) pairs; an item of the real iterator is Q::get(state[position], row)
     - len() = what is left in the current archetype + the counts of the archetypes behind it
   Theorems, under the cache invariant of Fetch.v (only non-empty archetypes are cached): from a fresh
   iterator, next() enumerates every (position, row) exactly once, in order, without unchecked failure;
   at EVERY point of the enumeration len() is exactly the number of items still to come (C06); once None,
   always None (FusedIterator). *)
From Coq Require Import List NArith Bool Lia.
Import ListNotations.
Require Import EV.Base EV.ListN.
Open Scope N_scope.

Record fiter := mkIt { it_pos : N; it_row : N; it_len : N }.
Inductive iout (A : Type) := IVal (a : A) | IUB (line : N).
Arguments IVal {A}. Arguments IUB {A}.

(* fetch.rs:120-148 *)
Definition it_new (counts : list N) : fiter :=
  match counts with [] => mkIt 0 0 0 | c :: _ => mkIt 0 0 c end.

(* fetch.rs:654-680; the empty cache has index == index_last (both dangling) *)
Definition it_next (counts : list N) (it : fiter) : iout (option (N * N) * fiter) :=
  if it_row it =? it_len it then
    if (nlen counts =? 0) || (it_pos it =? nlen counts - 1) then IVal (None, it)
    else match nget counts (it_pos it + 1) with
         | None => IUB 664                                   (* archetypes.get(idx).unwrap_unchecked() *)
         | Some c => if c =? 0 then IUB 670                  (* assume_unchecked(self.len > 0) *)
                     else IVal (Some (it_pos it + 1, 0), mkIt (it_pos it + 1) 1 c)
         end
  else IVal (Some (it_pos it, it_row it), mkIt (it_pos it) (it_row it + 1) (it_len it)).

(* fetch.rs:688-703 *)
Definition it_remaining (counts : list N) (it : fiter) : N :=
  (it_len it - it_row it) + fold_left N.add (skipn (N.to_nat (it_pos it) + 1) counts) 0.

Fixpoint rows (pos : N) (from : N) (n : nat) : list (N * N) :=
  match n with O => [] | S n' => (pos, from) :: rows pos (from + 1) n' end.
Fixpoint items_from (pos : N) (counts : list N) : list (N * N) :=
  match counts with [] => [] | c :: t => rows pos 0 (N.to_nat c) ++ items_from (pos + 1) t end.
Definition all_items (counts : list N) : list (N * N) := items_from 0 counts.

(* what is left at a cursor *)
Definition rest (counts : list N) (it : fiter) : list (N * N) :=
  rows (it_pos it) (it_row it) (N.to_nat (it_len it - it_row it)) ++
  items_from (it_pos it + 1) (skipn (N.to_nat (it_pos it) + 1) counts).

Definition ItInv (counts : list N) (it : fiter) : Prop :=
  Forall (fun c => 0 < c) counts /\ it_row it <= it_len it /\
  (counts = [] -> it = mkIt 0 0 0) /\ (counts <> [] -> nget counts (it_pos it) = Some (it_len it)).

Lemma skipn_cons_of {A} (l : list A) n x : nth_error l n = Some x -> skipn n l = x :: skipn (S n) l.
Proof. revert n. induction l as [|y t IH]; intros [|n] H; cbn in *; try discriminate; [congruence|]. now apply IH. Qed.
Lemma hd_skipn {A} (l : list A) : forall n, hd_error (skipn n l) = nth_error l n.
Proof. induction l as [|x t IH]; intros [|n]; cbn; auto. Qed.
Lemma NoDup_app_intro {A} (l1 l2 : list A) : NoDup l1 -> NoDup l2 -> (forall x, In x l1 -> In x l2 -> False) -> NoDup (l1 ++ l2).
Proof.
  induction l1 as [|x t IH]; intros H1 H2 Hd; cbn [app]; [exact H2|]. inversion H1; subst. constructor.
  - intros Hin. apply in_app_or in Hin as [Hin|Hin]; [contradiction|]. apply (Hd x); [now left|exact Hin].
  - apply IH; auto. intros y Hy1 Hy2. apply (Hd y); [now right|exact Hy2].
Qed.
Lemma rows_length pos from n : length (rows pos from n) = n.
Proof. revert from. induction n; intros; cbn; auto. Qed.
Lemma fold_add_acc l : forall a, fold_left N.add l a = a + fold_left N.add l 0.
Proof. induction l as [|x t IH]; intros a; cbn [fold_left]; [lia|]. rewrite IH, (IH (0 + x)). lia. Qed.
Lemma items_from_length counts : forall pos, N.of_nat (length (items_from pos counts)) = fold_left N.add counts 0.
Proof.
  induction counts as [|c t IH]; intros pos; cbn [items_from fold_left]; [reflexivity|].
  rewrite app_length, rows_length, Nat2N.inj_add, IH, (fold_add_acc t (0 + c)). lia.
Qed.

Lemma rows_in pos : forall n from p r, In (p, r) (rows pos from n) -> p = pos /\ from <= r.
Proof.
  induction n as [|n IH]; intros from p r Hin; [destruct Hin|]. cbn [rows] in Hin. destruct Hin as [Hq|Hin]; [inversion Hq; split; [reflexivity|lia]|].
  apply IH in Hin. split; [tauto|lia].
Qed.
Lemma rows_NoDup pos : forall n from, NoDup (rows pos from n).
Proof. induction n as [|n IH]; intros from; cbn [rows]; constructor; [|apply IH]. intros Hin. apply rows_in in Hin. lia. Qed.
Lemma items_from_in : forall l q p r, In (p, r) (items_from q l) -> q <= p.
Proof.
  induction l as [|c t IH]; intros q p r Hin; [destruct Hin|]. cbn [items_from] in Hin. apply in_app_or in Hin as [Hin|Hin].
  - apply rows_in in Hin. lia.
  - apply IH in Hin. lia.
Qed.
Lemma items_NoDup : forall l pos, NoDup (items_from pos l).
Proof.
  induction l as [|c t IH]; intros pos; cbn [items_from]; [constructor|]. apply NoDup_app_intro; [apply rows_NoDup|apply IH|].
  intros [p r] H1 H2. apply rows_in in H1. apply items_from_in in H2. lia.
Qed.

Theorem it_len_spec counts it : it_row it <= it_len it -> it_remaining counts it = N.of_nat (length (rest counts it)).
Proof.
  intros Hr. unfold it_remaining, rest. rewrite app_length, rows_length, Nat2N.inj_add, items_from_length. lia.
Qed.

Lemma rest_row counts it : it_row it < it_len it ->
  rest counts it = (it_pos it, it_row it) :: rest counts (mkIt (it_pos it) (it_row it + 1) (it_len it)).
Proof.
  intros H. unfold rest. cbn [it_pos it_row it_len]. now replace (N.to_nat (it_len it - it_row it)) with (S (N.to_nat (it_len it - (it_row it + 1)))) by lia.
Qed.
Lemma rest_next counts it c : it_row it = it_len it -> nget counts (it_pos it + 1) = Some c -> 0 < c ->
  rest counts it = (it_pos it + 1, 0) :: rest counts (mkIt (it_pos it + 1) 1 c).
Proof.
  intros Er Hc Hpos. unfold rest. cbn [it_pos it_row it_len]. rewrite Er, N.sub_diag. cbn [N.to_nat rows app].
  change (N.to_nat (it_pos it) + 1)%nat with (N.to_nat (it_pos it) + N.to_nat 1)%nat. rewrite <- N2Nat.inj_add, (skipn_nget _ _ _ Hc). cbn [items_from].
  now replace (N.to_nat c) with (S (N.to_nat (c - 1))) by lia.
Qed.
Lemma rest_end counts it : it_row it = it_len it -> nlen counts <= it_pos it + 1 -> rest counts it = [].
Proof. intros Er H. unfold rest. rewrite Er, N.sub_diag, skipn_all2; [reflexivity|]. unfold nlen in H. lia. Qed.

Theorem it_next_spec counts it : ItInv counts it ->
  match rest counts it with
  | [] => it_next counts it = IVal (None, it)
  | x :: tl => exists it', it_next counts it = IVal (Some x, it') /\ ItInv counts it' /\ rest counts it' = tl
  end.
Proof.
  intros (Hpos & Hr & He & Hn). unfold it_next. destruct (N.eqb_spec (it_row it) (it_len it)) as [Er|Er].
  - destruct counts as [|c0 t0] eqn:Ec; [now rewrite (He eq_refl)|]. rewrite <- Ec in *.
    assert (Hne : counts <> []) by (rewrite Ec; discriminate). pose proof (nget_some_lt _ _ _ (Hn Hne)) as Hlt.
    destruct (N.eqb_spec (nlen counts) 0); [lia|]. cbn [orb]. destruct (N.eqb_spec (it_pos it) (nlen counts - 1)) as [El|El].
    + rewrite rest_end; [reflexivity|exact Er|lia].
    + destruct (nget_lt_some counts (it_pos it + 1)) as [c Hc]; [lia|]. rewrite Hc.
      assert (Hc0 : 0 < c) by (rewrite Forall_forall in Hpos; apply Hpos; eapply nget_in; eauto).
      destruct (N.eqb_spec c 0); [lia|]. rewrite (rest_next counts it c Er Hc Hc0). eexists. split; [reflexivity|]. split; [|reflexivity].
      split; [exact Hpos|]. cbn [it_pos it_row it_len]. split; [lia|]. split; [contradiction|intros _; exact Hc].
  - rewrite rest_row by lia. eexists. split; [reflexivity|]. split; [|reflexivity].
    split; [exact Hpos|]. cbn [it_pos it_row it_len]. split; [lia|]. split; [|exact Hn]. intros X. rewrite (He X) in Er. now contradict Er.
Qed.

Lemma ItInv_new counts : Forall (fun c => 0 < c) counts -> ItInv counts (it_new counts) /\ rest counts (it_new counts) = all_items counts.
Proof.
  intros H. destruct counts as [|c t]; cbn [it_new].
  - split; [split; [exact H|split; [cbn; lia|split; [reflexivity|congruence]]]|reflexivity].
  - split; [split; [exact H|split; [cbn; lia|split; [discriminate|reflexivity]]]|]. unfold rest, all_items. cbn [it_pos it_row it_len N.to_nat skipn items_from Nat.add].
    now rewrite N.sub_0_r.
Qed.

(* drain: call next() until None (fuel = an upper bound on the calls); returns the items and the final cursor *)
Fixpoint it_drain (fuel : nat) (counts : list N) (it : fiter) : iout (list (N * N) * fiter) :=
  match fuel with
  | O => IVal ([], it)
  | S f => match it_next counts it with
           | IUB l => IUB l
           | IVal (None, it') => IVal ([], it')
           | IVal (Some x, it') => match it_drain f counts it' with
                                   | IUB l => IUB l
                                   | IVal (xs, it'') => IVal (x :: xs, it'')
                                   end
           end
  end.

Theorem it_drain_spec counts : forall fuel it, ItInv counts it -> (length (rest counts it) < fuel)%nat ->
  exists it', it_drain fuel counts it = IVal (rest counts it, it') /\ ItInv counts it' /\ rest counts it' = [] /\
              it_next counts it' = IVal (None, it') /\ it_remaining counts it' = 0.
Proof.
  induction fuel as [|f IH]; intros it HI Hf; [lia|]. cbn [it_drain]. pose proof (it_next_spec counts it HI) as Hs.
  destruct (rest counts it) as [|x tl] eqn:Er.
  - rewrite Hs. exists it. split; [reflexivity|]. split; [exact HI|]. split; [exact Er|]. split; [exact Hs|].
    destruct HI as (_ & Hr & _). rewrite (it_len_spec counts it Hr), Er. reflexivity.
  - destruct Hs as (it1 & E1 & HI1 & R1). rewrite E1. cbn [length] in Hf. destruct (IH it1 HI1 ltac:(rewrite R1; lia)) as (it' & E2 & A & B & C & D).
    rewrite E2, R1. exists it'. auto.
Qed.

(* from a fresh iterator over a cache of non-empty archetypes: every (position, row) exactly once, in order, no
   unchecked failure; len() of the fresh iterator is the total; afterwards next() keeps returning None *)
Corollary it_enumerates counts : Forall (fun c => 0 < c) counts ->
  exists it', it_drain (S (length (all_items counts))) counts (it_new counts) = IVal (all_items counts, it') /\
              it_remaining counts (it_new counts) = N.of_nat (length (all_items counts)) /\
              it_next counts it' = IVal (None, it') /\ NoDup (all_items counts).
Proof.
  intros H. destruct (ItInv_new counts H) as [HI HR]. destruct (it_drain_spec counts (S (length (all_items counts))) (it_new counts) HI ltac:(rewrite HR; lia)) as (it' & E & _ & _ & C & _).
  exists it'. rewrite HR in E. split; [exact E|]. split; [rewrite <- HR; apply it_len_spec; destruct HI as (_ & X & _); exact X|]. split; [exact C|].
  apply items_NoDup.
Qed.

(* composite statement used by Props/C06.v: at every cursor reached by any number of calls to next(), len() is the
   number of items the remaining calls yield *)
Fixpoint it_advance (k : nat) (counts : list N) (it : fiter) : iout fiter :=
  match k with
  | O => IVal it
  | S k' => match it_next counts it with IUB l => IUB l | IVal (_, it') => it_advance k' counts it' end
  end.
Theorem it_len_after_any_prefix counts : Forall (fun c => 0 < c) counts -> forall k,
  exists it', it_advance k counts (it_new counts) = IVal it' /\ ItInv counts it' /\
              rest counts it' = skipn k (all_items counts) /\
              it_remaining counts it' = N.of_nat (length (skipn k (all_items counts))).
Proof.
  intros H k. destruct (ItInv_new counts H) as [HI HR]. rewrite <- HR. generalize (it_new counts) HI. clear HI HR.
  induction k as [|k IH]; intros it HI; cbn [it_advance skipn].
  - exists it. split; [reflexivity|]. split; [exact HI|]. split; [reflexivity|]. apply it_len_spec. destruct HI as (_ & X & _). exact X.
  - pose proof (it_next_spec counts it HI) as Hs. destruct (rest counts it) as [|x tl] eqn:Er.
    + rewrite Hs. destruct (IH it HI) as (it' & A & B & C & D). exists it'. rewrite Er in C, D. split; [exact A|]. split; [exact B|].
      rewrite C, D. destruct k; cbn [skipn]; auto.
    + destruct Hs as (it1 & E1 & HI1 & R1). rewrite E1. destruct (IH it1 HI1) as (it' & A & B & C & D). exists it'. rewrite R1 in C, D. auto.
Qed.

(* non-vacuity: a cache of three archetypes with 2, 1 and 3 entities *)
Example it_example : it_drain 10 [2; 1; 3] (it_new [2; 1; 3]) = IVal ([(0,0); (0,1); (1,0); (2,0); (2,1); (2,2)], mkIt 2 3 3)
                     /\ it_remaining [2; 1; 3] (it_new [2; 1; 3]) = 6.
Proof. split; vm_compute; reflexivity. Qed.
