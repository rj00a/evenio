(* QueryProofs.v : for every query expression and every archetype (any predicate on
   component indices), the access expression built by `init`, the structural matcher
   `new_arch_state` and the documented Boolean meaning agree. *)
From Coq Require Import List NArith Bool Lia.
Import ListNotations.
Require Import EV.Base EV.Access EV.AccessProofs EV.Query.
Require Export EV.QueryInd.

Lemma access_tuple qs : access_of (QTuple qs) = fold_left ca_and (map access_of qs) ca_true.
Proof. cbn [access_of]. generalize ca_true. induction qs as [|q qs IH]; intros acc; cbn; [reflexivity|apply IH]. Qed.

(* T1: the access expression matches exactly the archetypes the documented meaning selects *)
Theorem access_matches_qmatch (a : N -> bool) (q : query) : ca_matches a (access_of q) = qmatch a q.
Proof.
  induction q as [c|c|qs IH|q IH|l r IHl IHr|l r IHl IHr|q IH|q IH|q IH|] using query_ind'; cbn [access_of qmatch].
  9-10: reflexivity.
  1-2: apply ca_var_matches.
  - change (ca_matches a (access_of (QTuple qs)) = forallb (qmatch a) qs). rewrite access_tuple, fold_and_matches.
    induction IH as [|x l Hx _ IHl]; cbn [map forallb]; [reflexivity|now rewrite Hx, <- IHl].
  - rewrite ca_or_matches. reflexivity.
  - rewrite !ca_or_matches, ca_and_matches, IHl, IHr. destruct (qmatch a l), (qmatch a r); reflexivity.
  - rewrite ca_or_matches, !ca_and_matches, !ca_not_matches, IHl, IHr. destruct (qmatch a l), (qmatch a r); reflexivity.
  - rewrite ca_not_matches, IH. reflexivity.
  - rewrite ca_clear_matches. exact IH.
Qed.

(* the structural matcher decides the same predicate *)
Theorem arch_state_iff_qmatch (a : N -> bool) (q : query) :
  (if arch_state a q then true else false) = qmatch a q.
Proof.
  induction q as [c|c|qs IH|q IH|l r IHl IHr|l r IHl IHr|q IH|q IH|q IH|] using query_ind'; cbn [arch_state qmatch].
  9-10: reflexivity.
  7-8: rewrite <- IH; destruct (arch_state a q); reflexivity.
  5-6: rewrite <- IHl, <- IHr; destruct (arch_state a l), (arch_state a r); reflexivity.
  1-2: destruct (a c); reflexivity.
  - induction IH as [|x l Hx _ IHl]; [reflexivity|]. cbn [forallb map seq_opt].
    rewrite <- Hx, <- IHl. destruct (arch_state a x); [|reflexivity].
    destruct (seq_opt (map (arch_state a) l)); reflexivity.
  - reflexivity.
Qed.

Corollary init_agrees_with_matcher a q : ca_matches a (access_of q) = (if arch_state a q then true else false).
Proof. now rewrite access_matches_qmatch, arch_state_iff_qmatch. Qed.
