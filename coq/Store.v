(* Store.v : the storage invariant of the world model (C17, first part) and the abstraction to
   a finite map (C02).
     - every live entity's recorded location points at a row that holds that entity;
     - every row of every archetype holds a live entity whose recorded location is that row,
       with one value per column;
     - the entity slot map satisfies its own invariant.
   Preserved by spawning, by removing an entity's row (swap-remove with fix-up of the displaced
   entity) and by moving an entity between archetypes: a move takes the row out of the source
   (section Detach) and pushes a row onto the destination (section Push). *)
From Coq Require Import List NArith Bool Lia.
Import ListNotations.
Require Import EV.Base EV.ListN EV.Access EV.Query EV.SlotMap EV.Reserve EV.HList EV.Loop EV.World EV.StorageSpec EV.SlotMapGet EV.ArchProofs EV.WorldFrame.
Open Scope N_scope.

Definition arch_at (w : world) (ai : N) : option arch := slab_get (w_archs w) ai.

Definition StoreInv (w : world) : Prop :=
  SmInv (w_ents w) /\
  (forall e ai row, sm_get e (w_ents w) = Some (ai, row) ->
     exists a vals, arch_at w ai = Some a /\ nget (a_rows a) row = Some (e, vals)) /\
  (forall ai a row e vals, arch_at w ai = Some a -> nget (a_rows a) row = Some (e, vals) ->
     sm_get e (w_ents w) = Some (ai, row) /\ length vals = length (a_comps a)).

(* the map the storage denotes: value of component (index) c of entity e *)
Definition abs (w : world) (e : key) (c : N) : option cval :=
  match sm_get e (w_ents w) with
  | Some (ai, row) =>
      match arch_at w ai with
      | Some a => match nget (a_rows a) row with Some (_, vals) => row_col a vals c | None => None end
      | None => None
      end
  | None => None
  end.

Lemma StoreInv_ext w w' : w_ents w' = w_ents w -> w_archs w' = w_archs w -> StoreInv w -> StoreInv w'.
Proof. unfold StoreInv, arch_at. intros -> ->. auto. Qed.
Lemma abs_ext w w' : w_ents w' = w_ents w -> w_archs w' = w_archs w -> forall e c, abs w' e c = abs w e c.
Proof. unfold abs, arch_at. intros -> ->. reflexivity. Qed.

Lemma drops_fold_ents l w : w_ents (fold_left (fun (w' : world) '(c, v) => drop_cval w' (comp_tag w' c) v) l w) = w_ents w.
Proof. exact (f_equal w_ents (drop_all_eq l w)). Qed.
Lemma drops_fold_archs l w : w_archs (fold_left (fun (w' : world) '(c, v) => drop_cval w' (comp_tag w' c) v) l w) = w_archs w.
Proof. exact (f_equal w_archs (drop_all_eq l w)). Qed.
Lemma fold_left_pres_aby l w : w_aby (fold_left (fun (w' : world) '(c, v) => drop_cval w' (comp_tag w' c) v) l w) = w_aby w.
Proof. exact (f_equal w_aby (drop_all_eq l w)). Qed.
Lemma notify_remove_ents w ai : w_ents (notify_remove w ai) = w_ents w.
Proof. exact (f_equal w_ents (notify_remove_eq w ai)). Qed.
Lemma notify_remove_archs w ai : w_archs (notify_remove w ai) = w_archs w.
Proof. exact (f_equal w_archs (notify_remove_eq w ai)). Qed.
Lemma notify_refresh_aby w ai : w_aby (notify_refresh w ai) = w_aby w.
Proof. exact (f_equal w_aby (notify_refresh_eq w ai)). Qed.
Lemma notify_remove_aby w ai : w_aby (notify_remove w ai) = w_aby w.
Proof. exact (f_equal w_aby (notify_remove_eq w ai)). Qed.
Lemma notify_refresh_ents w ai : w_ents (notify_refresh w ai) = w_ents w.
Proof. exact (f_equal w_ents (notify_refresh_eq w ai)). Qed.
Lemma notify_refresh_archs w ai : w_archs (notify_refresh w ai) = w_archs w.
Proof. exact (f_equal w_archs (notify_refresh_eq w ai)). Qed.

Lemma slab_get_set_eq s i a0 a : slab_get s i = Some a0 -> slab_get (slab_set s i a) i = Some a.
Proof.
  unfold slab_get, slab_set. cbn [sl_entries]. destruct (nget (sl_entries s) i) as [[x|n]|] eqn:E; try discriminate. intros _.
  rewrite nget_nset_eq; [reflexivity|]. eapply nget_some_lt; eauto.
Qed.
Lemma slab_get_set_neq s i j a : i <> j -> slab_get (slab_set s i a) j = slab_get s j.
Proof. intros H. unfold slab_get, slab_set. cbn [sl_entries]. now rewrite nget_nset_neq. Qed.
Lemma slab_get_set s i a0 a j : slab_get s i = Some a0 ->
  slab_get (slab_set s i a) j = if j =? i then Some a else slab_get s j.
Proof.
  intros H. destruct (N.eqb_spec j i) as [->|E]; [exact (slab_get_set_eq s i a0 a H)|].
  apply slab_get_set_neq. intros X. now apply E.
Qed.

(* the archetypes after a move, as move_entity_ok gives them *)
Section MoveRow.
Variables (w : world) (sai srow dst : N) (sa da : arch) (e : key) (dvals : list cval) (cap' ep' : N).
Hypothesis Hsa : arch_at w sai = Some sa.
Hypothesis Hda : arch_at w dst = Some da.
Hypothesis Hne : sai <> dst.
Local Notation sa1 := (set_rows sa (swap_remove (a_rows sa) srow)).
Local Notation da2 := (set_rows (set_cap da cap' ep') (a_rows da ++ [(e, dvals)])).
Local Notation archs' := (slab_set (slab_set (w_archs w) sai sa1) dst da2).

Lemma move_arch_at j : slab_get archs' j = if j =? dst then Some da2 else if j =? sai then Some sa1 else arch_at w j.
Proof.
  rewrite (slab_get_set _ dst da da2 j) by (rewrite slab_get_set_neq by exact Hne; exact Hda).
  now rewrite (slab_get_set _ sai sa sa1 j Hsa).
Qed.
End MoveRow.

(* two live keys of one slot are the same key *)
Lemma live_same_index {V} (m : smap V) k1 k2 v1 v2 : sm_get k1 m = Some v1 -> sm_get k2 m = Some v2 -> fst k1 = fst k2 -> k1 = k2.
Proof.
  intros H1 H2 Hf. destruct (sm_get_some_inv _ _ _ H1) as (s1 & Hs1 & Hg1 & _). destruct (sm_get_some_inv _ _ _ H2) as (s2 & Hs2 & Hg2 & _).
  rewrite Hf in Hs1. rewrite Hs1 in Hs2. inversion Hs2; subst. destruct k1, k2. cbn in *. congruence.
Qed.
Lemma upd_get_other {V} (m : smap V) e v f k : sm_get e m = Some v -> k <> e -> sm_get k (upd_by_index m (fst e) f) = sm_get k m.
Proof.
  intros He Hk. destruct (N.eq_dec (fst k) (fst e)) as [Ei|Ei]; [|now apply upd_get_neq].
  rewrite (upd_get_same_index m e f k v He Ei Hk). destruct (sm_get k m) eqn:Hg; [|reflexivity].
  exfalso. apply Hk. eapply live_same_index; eauto.
Qed.
Lemma upd_by_index_ext {V} (m : smap V) i (f g : V -> V) :
  (forall s v, sget (slots m) i = Some s -> val s = Some v -> f v = g v) -> upd_by_index m i f = upd_by_index m i g.
Proof.
  intros H. unfold upd_by_index. destruct (sget (slots m) i) as [s|] eqn:Es; [|reflexivity].
  destruct (val s) as [v|] eqn:Ev; [|reflexivity]. now rewrite (H s v eq_refl Ev).
Qed.
Lemma sm_remove_live {V} (m : smap V) k v : sm_get k m = Some v -> exists m', sm_remove k m = Some (v, m').
Proof.
  intros Hg. destruct (sm_get_some_inv _ _ _ Hg) as (s & Hs & Hgen & Hv). unfold sm_remove. rewrite Hs, Hgen, N.eqb_refl, Hv.
  destruct (wrap_succ (snd k) =? 0); eauto.
Qed.
Lemma swap_remove_displaced {A} (l : list A) i x : i < nlen l -> nget (swap_remove l i) i = Some x ->
  nget l (nlen l - 1) = Some x /\ i <> nlen l - 1.
Proof. intros Hlt H. apply (swap_remove_rows _ _ _ _ Hlt) in H. destruct H as [(X & _)|(_ & Hn & Hl)]; [congruence|auto]. Qed.
Lemma set_cap_eta a : set_cap a (a_cap a) (a_epoch a) = a.
Proof. now destruct a. Qed.

Definition same_dom {V} (m m' : smap V) : Prop := forall k, sm_get k m = None <-> sm_get k m' = None.
Lemma same_dom_refl {V} (m : smap V) : same_dom m m. Proof. intros k. reflexivity. Qed.
Lemma same_dom_trans {V} (a b c : smap V) : same_dom a b -> same_dom b c -> same_dom a c.
Proof. intros H1 H2 k. rewrite (H1 k). apply H2. Qed.
Lemma upd_same_dom {V} (m : smap V) i f : same_dom m (upd_by_index m i f).
Proof.
  intros k. unfold upd_by_index. destruct (sget (slots m) i) as [s|] eqn:Es; [|reflexivity].
  destruct (val s) as [v|] eqn:Ev; [|reflexivity]. unfold sm_get. cbn [slots].
  destruct (N.eq_dec i (fst k)) as [<-|Hne].
  - erewrite sget_supd_eq by eauto. rewrite Es. cbn [gen val]. rewrite Ev. destruct (gen s =? snd k); split; congruence.
  - now rewrite sget_supd_neq by auto.
Qed.
Lemma set_loc_dom w e l w' : set_loc w e l = ROk tt w' -> same_dom (w_ents w) (w_ents w').
Proof. unfold set_loc. destruct (sm_get e (w_ents w)); [|discriminate]. intros [= <-]. apply upd_same_dom. Qed.
Lemma fixup_inv m rows row : SmInv m -> SmInv (fixup m rows row).
Proof.
  intros H. unfold fixup. destruct (nget rows row) as [[de dv]|]; [|exact H].
  destruct (sm_get de m) eqn:Hg; [|exact H]. exact (upd_inv m de _ _ H Hg).
Qed.
Lemma fixup_dom m rows row : same_dom m (fixup m rows row).
Proof.
  unfold fixup. destruct (nget rows row) as [[de dv]|]; [|apply same_dom_refl].
  destruct (sm_get de m); [apply upd_same_dom|apply same_dom_refl].
Qed.
Lemma fixup_get_eq m rows row de dv l : nget rows row = Some (de, dv) -> sm_get de m = Some l ->
  sm_get de (fixup m rows row) = Some (fst l, row).
Proof. intros Hd Hg. unfold fixup. rewrite Hd, Hg. exact (upd_get_eq m de _ l Hg). Qed.
Lemma fixup_get_neq m rows row k : (forall dv, nget rows row <> Some (k, dv)) -> sm_get k (fixup m rows row) = sm_get k m.
Proof.
  intros Hk. unfold fixup. destruct (nget rows row) as [[de dv]|]; [|reflexivity].
  destruct (sm_get de m) as [l|] eqn:Hg; [|reflexivity]. apply (upd_get_other m de l _ k Hg). intros ->. exact (Hk dv eq_refl).
Qed.
Lemma StoreInv_world0 fuel p : StoreInv (world0 fuel p).
Proof.
  unfold StoreInv, world0, arch_at. cbn [w_ents w_archs]. split; [apply empty_inv|]. split.
  - intros e ai row H. discriminate.
  - intros ai a row e vals Ha Hr. unfold slab_get in Ha. cbn in Ha. destruct (ai =? 0); [|discriminate]. inversion Ha; subst. discriminate.
Qed.

Lemma abs_of_row w ai a row k vals c : StoreInv w -> arch_at w ai = Some a -> nget (a_rows a) row = Some (k, vals) ->
  abs w k c = row_col a vals c.
Proof.
  intros (_ & _ & Hr) Ha Hn. destruct (Hr _ _ _ _ _ Ha Hn) as [Hg _]. unfold abs. now rewrite Hg, Ha, Hn.
Qed.
Lemma abs_dead w k c : sm_get k (w_ents w) = None -> abs w k c = None.
Proof. intros H. unfold abs. now rewrite H. Qed.
Lemma row_col_comps a b vals c : a_comps a = a_comps b -> row_col a vals c = row_col b vals c.
Proof. unfold row_col. now intros ->. Qed.
Lemma abs_kept w w' k : StoreInv w -> StoreInv w' ->
  (forall aj b rj vb, arch_at w aj = Some b -> nget (a_rows b) rj = Some (k, vb) ->
     exists aj' b' rj', arch_at w' aj' = Some b' /\ a_comps b' = a_comps b /\ nget (a_rows b') rj' = Some (k, vb)) ->
  (sm_get k (w_ents w) = None -> sm_get k (w_ents w') = None) -> forall c, abs w' k c = abs w k c.
Proof.
  intros Hi Hi' Hk Hd c. destruct (sm_get k (w_ents w)) as [[aj rj]|] eqn:Hg.
  - destruct (proj1 (proj2 Hi) _ _ _ Hg) as (b & vb & Hb & Hn). destruct (Hk _ _ _ _ Hb Hn) as (aj' & b' & rj' & Hb' & Hc & Hn').
    rewrite (abs_of_row w' aj' b' rj' k vb c Hi' Hb' Hn'), (abs_of_row w aj b rj k vb c Hi Hb Hn). now apply row_col_comps.
  - rewrite (abs_dead w k c Hg). apply abs_dead. now apply Hd.
Qed.

(* a store that is consistent except for one entity: [e], wherever its own entry points, is in no row; everything
   else is as StoreInv wants it *)
Definition stored_but (e : key) (m : smap eloc) (s : slab) : Prop :=
  SmInv m /\
  (forall k ai row, k <> e -> sm_get k m = Some (ai, row) ->
     exists a vals, slab_get s ai = Some a /\ nget (a_rows a) row = Some (k, vals)) /\
  (forall ai a row k vals, slab_get s ai = Some a -> nget (a_rows a) row = Some (k, vals) ->
     k <> e /\ sm_get k m = Some (ai, row) /\ length vals = length (a_comps a)).

Lemma stored_but_dead e w : stored_but e (w_ents w) (w_archs w) -> sm_get e (w_ents w) = None -> StoreInv w.
Proof.
  intros (Hsm & Hl & Hr) He. split; [exact Hsm|]. split.
  - intros k ai row Hk. apply Hl; [intros ->; congruence|exact Hk].
  - intros ai a row k vals Ha Hn. exact (proj2 (Hr _ _ _ _ _ Ha Hn)).
Qed.
Lemma StoreInv_but w e m : StoreInv w -> SmInv m -> sm_get e (w_ents w) = None ->
  (forall k, k <> e -> sm_get k m = sm_get k (w_ents w)) -> stored_but e m (w_archs w).
Proof.
  intros (_ & Hl & Hr) Hm He Ho. split; [exact Hm|]. split.
  - intros k ai row Hk Hg. rewrite (Ho k Hk) in Hg. exact (Hl _ _ _ Hg).
  - intros ai a row k vals Ha Hn. destruct (Hr _ _ _ _ _ Ha Hn) as [Hg Hlen].
    assert (Hk : k <> e) by (intros ->; congruence). rewrite (Ho k Hk). auto.
Qed.

(* pushing the missing entity's row onto an archetype (Vec::push in archetype.rs:107, 466) *)
Section Push.
Variables (e : key) (m : smap eloc) (s : slab) (dst : N) (da da2 : arch) (dvals : list cval).
Hypothesis Hst : stored_but e m s.
Hypothesis Hda : slab_get s dst = Some da.
Hypothesis He : sm_get e m = Some (dst, nlen (a_rows da)).
Hypothesis Hc : a_comps da2 = a_comps da.
Hypothesis Hrows : a_rows da2 = a_rows da ++ [(e, dvals)].
Hypothesis Hlen : length dvals = length (a_comps da).

Lemma push_keeps aj b rj x : slab_get s aj = Some b -> nget (a_rows b) rj = Some x ->
  exists b', slab_get (slab_set s dst da2) aj = Some b' /\ a_comps b' = a_comps b /\ nget (a_rows b') rj = Some x.
Proof using Hda Hc Hrows.
  intros Hb Hn. rewrite (slab_get_set s dst da da2 aj Hda). destruct (N.eqb_spec aj dst) as [->|_]; [|eauto].
  rewrite Hda in Hb. injection Hb as <-. exists da2. rewrite Hrows, nget_app_l by (eapply nget_some_lt; eauto). auto.
Qed.
Lemma push_new : slab_get (slab_set s dst da2) dst = Some da2 /\ nget (a_rows da2) (nlen (a_rows da)) = Some (e, dvals).
Proof using Hda Hrows. split; [exact (slab_get_set_eq s dst da da2 Hda)|rewrite Hrows; apply nget_snoc_last]. Qed.
Lemma push_stored w : w_ents w = m -> w_archs w = slab_set s dst da2 -> StoreInv w.
Proof using All.
  destruct Hst as (Hsm & Hl & Hr). intros Em As. unfold StoreInv, arch_at. rewrite Em, As. split; [exact Hsm|]. split.
  - intros k ai row Hk. destruct (key_eq_dec k e) as [->|Hne].
    + rewrite He in Hk. injection Hk as <- <-. destruct push_new. eauto.
    + destruct (Hl _ _ _ Hne Hk) as (b & vb & Hb & Hn). destruct (push_keeps _ _ _ _ Hb Hn) as (b' & Hb' & _ & Hn'). eauto.
  - intros ai b row k vals Hb Hn. rewrite (slab_get_set s dst da da2 ai Hda) in Hb. destruct (N.eqb_spec ai dst) as [->|_].
    + injection Hb as <-. rewrite Hrows in Hn. rewrite Hc. destruct (nget_snoc_inv _ _ _ _ Hn) as [Hold|[-> [= -> ->]]]; [|auto].
      exact (proj2 (Hr _ _ _ _ _ Hda Hold)).
    + exact (proj2 (Hr _ _ _ _ _ Hb Hn)).
Qed.
End Push.

(* taking the row of [e] out of its archetype (swap_remove in archetype.rs:478, 522) and fixing up the displaced
   entity, whatever has been done to [e]'s own entry in the entity map meanwhile *)
Section Detach.
Context {w : world} {ai row : N} {a : arch} {e : key} {vals : list cval}.
Hypothesis Hinv : StoreInv w.
Hypothesis Ha : arch_at w ai = Some a.
Hypothesis Hrow : nget (a_rows a) row = Some (e, vals).

Lemma remove_row_ents_some : exists ents', sm_remove e (w_ents w) = Some ((ai, row), ents').
Proof. exact (sm_remove_live _ _ _ (proj1 (proj2 (proj2 Hinv) _ _ _ _ _ Ha Hrow))). Qed.

Context {m0 : smap eloc}.
Hypothesis Hm0 : SmInv m0.
Hypothesis Hoth : forall k, k <> e -> sm_get k m0 = sm_get k (w_ents w).

Local Notation last := (nlen (a_rows a) - 1).
Local Notation rows1 := (swap_remove (a_rows a) row).
Local Notation s1 := (slab_set (w_archs w) ai (set_rows a rows1)).
Local Notation m1 := (fixup m0 rows1 row).

Let Hr := proj2 (proj2 Hinv).
Let Hlt : row < nlen (a_rows a) := nget_some_lt _ _ _ Hrow.
Collection Row := Hinv Ha Hrow Hr Hlt.

Lemma detach_displaced de dv : nget rows1 row = Some (de, dv) ->
  de <> e /\ sm_get de (w_ents w) = Some (ai, last) /\ length dv = length (a_comps a).
Proof using Row.
  intros Hd. apply (swap_remove_rows _ _ _ _ Hlt) in Hd. destruct Hd as [(X & _)|(_ & Hnl & Hlast)]; [congruence|].
  destruct (Hr _ _ _ _ _ Ha Hlast) as [Hg Hlen]. split; [|auto].
  intros ->. rewrite (proj1 (Hr _ _ _ _ _ Ha Hrow)) in Hg. congruence.
Qed.
Lemma detach_live : ~ displaced_dead m0 rows1 row.
Proof using Row Hoth. intros (de & dv & Hd & Hg). destruct (detach_displaced de dv Hd) as (Hne & Hg' & _). rewrite (Hoth de Hne) in Hg. congruence. Qed.
Lemma detach_self : sm_get e m1 = sm_get e m0.
Proof using Row. apply fixup_get_neq. intros dv Hd. now destruct (detach_displaced e dv Hd). Qed.
Lemma detach_dead k : k <> e -> sm_get k (w_ents w) = None <-> sm_get k m1 = None.
Proof using Hoth. intros Hk. rewrite <- (Hoth k Hk). apply fixup_dom. Qed.

Lemma detach_get k aj rj : sm_get k (w_ents w) = Some (aj, rj) -> (aj, rj) <> (ai, row) -> (aj, rj) <> (ai, last) ->
  k <> e /\ sm_get k m1 = Some (aj, rj).
Proof using Row Hoth.
  intros Hg H1 H2. assert (Hk : k <> e) by (intros ->; rewrite (proj1 (Hr _ _ _ _ _ Ha Hrow)) in Hg; congruence).
  split; [exact Hk|]. rewrite fixup_get_neq, (Hoth k Hk); [exact Hg|].
  intros dv Hd. destruct (detach_displaced k dv Hd) as (_ & Hg' & _). congruence.
Qed.

(* every other row survives, in the same archetype, with the same values *)
Lemma detach_keeps aj b rj k vb : k <> e -> arch_at w aj = Some b -> nget (a_rows b) rj = Some (k, vb) ->
  exists rj' b', slab_get s1 aj = Some b' /\ a_comps b' = a_comps b /\ nget (a_rows b') rj' = Some (k, vb).
Proof using Ha Hrow Hlt.
  intros Hk Hb Hn. unfold arch_at in *. rewrite (slab_get_set _ ai a _ aj Ha). destruct (N.eqb_spec aj ai) as [->|_]; [|eauto].
  rewrite Ha in Hb. injection Hb as <-. pose proof (nget_some_lt _ _ _ Hn).
  assert (rj <> row) by (intros ->; rewrite Hrow in Hn; congruence).
  destruct (N.eq_dec rj last) as [->|Hl].
  - exists row, (set_rows a rows1). split; [reflexivity|]. split; [reflexivity|]. apply (swap_remove_rows _ _ _ _ Hlt). right. auto.
  - exists rj, (set_rows a rows1). split; [reflexivity|]. split; [reflexivity|]. apply (swap_remove_rows _ _ _ _ Hlt). left. repeat split; [assumption|lia|assumption].
Qed.

Lemma detach_rows aj b rj k vk : slab_get s1 aj = Some b -> nget (a_rows b) rj = Some (k, vk) ->
  k <> e /\ sm_get k m1 = Some (aj, rj) /\ length vk = length (a_comps b).
Proof using Row Hoth.
  intros Hb Hn. unfold arch_at in *. rewrite (slab_get_set _ ai a _ aj Ha) in Hb. destruct (N.eqb_spec aj ai) as [->|Haj].
  - injection Hb as <-. cbn [a_rows a_comps set_rows] in *. destruct (proj1 (swap_remove_rows _ _ _ _ Hlt) Hn) as [(Hrj & Hl & Hold)|(-> & _)].
    + destruct (Hr _ _ _ _ _ Ha Hold) as [Hg Hlen]. destruct (detach_get k ai rj Hg) as [Hk Hg1]; [intros [=]; contradiction|intros [=]; lia|auto].
    + destruct (detach_displaced k vk Hn) as (Hk & Hg & Hlen). rewrite <- (Hoth k Hk) in Hg.
      split; [exact Hk|]. split; [exact (fixup_get_eq m0 rows1 row k vk _ Hn Hg)|exact Hlen].
  - destruct (Hr _ _ _ _ _ Hb Hn) as [Hg Hlen]. destruct (detach_get k aj rj Hg) as [Hk Hg1]; [intros [=]; contradiction|intros [=]; contradiction|auto].
Qed.

(* a live entity has a row: its old row survives, and rows determine locations *)
Lemma detach_stored : stored_but e m1 s1.
Proof using All.
  split; [now apply fixup_inv|]. split; [|exact detach_rows].
  intros k aj rj Hk Hg. destruct (sm_get k (w_ents w)) as [[aj0 rj0]|] eqn:Hg0.
  - destruct (proj1 (proj2 Hinv) _ _ _ Hg0) as (b & vb & Hb & Hn). destruct (detach_keeps _ _ _ _ _ Hk Hb Hn) as (rj' & b' & Hb' & _ & Hn').
    destruct (detach_rows _ _ _ _ _ Hb' Hn') as (_ & Hg' & _). rewrite Hg in Hg'. injection Hg' as -> ->. eauto.
  - apply (detach_dead k Hk) in Hg0. congruence.
Qed.
End Detach.

(* C02 / C17 for despawn's row removal (archetype.rs:507-540): it succeeds on a consistent store (no unchecked step
   fails), keeps the store consistent, makes exactly that entity disappear, and leaves every
   component of every other entity as it was *)
Theorem remove_entity_ok_full w ai row a e vals :
  StoreInv w -> arch_at w ai = Some a -> nget (a_rows a) row = Some (e, vals) ->
  exists w', remove_entity w (ai, row) = ROk tt w' /\ StoreInv w' /\
             sm_get e (w_ents w') = None /\ (forall k c, k <> e -> abs w' k c = abs w k c) /\
             w_archs w' = slab_set (w_archs w) ai (set_rows a (swap_remove (a_rows a) row)) /\ w_aby w' = w_aby w /\
             (forall k, k <> e -> sm_get k (w_ents w) = None -> sm_get k (w_ents w') = None) /\
             (forall k, k <> e -> sm_get k (w_ents w) <> None -> sm_get k (w_ents w') <> None).
Proof.
  intros Hinv Ha Hrow. pose proof Hinv as (Hsm & _ & Hr). destruct (Hr _ _ _ _ _ Ha Hrow) as [Hge _].
  destruct (sm_remove_live _ _ _ Hge) as (ents' & Hrem).
  assert (Hm0 : SmInv ents') by exact (remove_inv _ _ _ _ Hsm Hrem).
  assert (Hoth : forall k, k <> e -> sm_get k ents' = sm_get k (w_ents w)) by (intros k Hk; exact (remove_get_other e (w_ents w) (ai, row) ents' k Hsm Hrem Hk)).
  assert (Hgone : sm_get e ents' = None) by exact (remove_get_gone e (w_ents w) (ai, row) ents' Hsm Hrem).
  pose proof (detach_stored Hinv Ha Hrow Hm0 Hoth) as Hst.
  pose proof (detach_dead (row:=row) (a:=a) Hoth) as Hdom.
  pose proof (detach_keeps Ha Hrow) as Hkeep.
  exists (removed w ai row a vals ents'). split; [exact (remove_entity_removes w ai row a e vals _ ents' Ha Hrow Hrem (detach_live Hinv Ha Hrow Hoth))|].
  rewrite removed_eq. set (wf := set_hs _ _). change (w_ents wf) with (fixup ents' (swap_remove (a_rows a) row) row) in *.
  assert (Hgf : sm_get e (w_ents wf) = None) by (apply fixup_dom; exact Hgone).
  assert (Hinvf : StoreInv wf) by (apply (stored_but_dead e); [exact Hst|exact Hgf]).
  assert (Hdead : forall k, k <> e -> sm_get k (w_ents w) = None -> sm_get k (w_ents wf) = None) by (intros k Hk; apply Hdom, Hk).
  split; [exact Hinvf|]. split; [exact Hgf|]. split; [|split; [reflexivity|split; [reflexivity|split; [exact Hdead|]]]].
  - intros k c Hk. apply abs_kept; [exact Hinv|exact Hinvf| |now apply Hdead].
    intros aj b rj vb Hb Hn. destruct (Hkeep aj b rj k vb Hk Hb Hn) as (rj' & b' & Hb' & Hn'). exists aj, b', rj'. exact (conj Hb' Hn').
  - intros k Hk Hlive X. apply Hlive. now apply (Hdom k Hk).
Qed.

Theorem remove_entity_ok w ai row a e vals :
  StoreInv w -> arch_at w ai = Some a -> nget (a_rows a) row = Some (e, vals) ->
  exists w', remove_entity w (ai, row) = ROk tt w' /\ StoreInv w' /\
             sm_get e (w_ents w') = None /\ (forall k c, k <> e -> abs w' k c = abs w k c).
Proof. intros H1 H2 H3. destruct (remove_entity_ok_full w ai row a e vals H1 H2 H3) as (w' & A & B & C & D & _). eauto. Qed.

(* C02 / C17 / C01 for the archetype move behind Insert and Remove (archetype.rs:378-503): on a consistent store, when
   the column walk succeeds, move_entity succeeds (no unchecked step fails), keeps the store
   consistent, leaves every component of every other entity as it was, and stores the walk's
   destination values for the moved entity in the destination archetype *)
Theorem move_entity_ok w sai srow dst sa da e vals nw dvals killed :
  StoreInv w -> arch_at w sai = Some sa -> arch_at w dst = Some da -> sai <> dst ->
  nget (a_rows sa) srow = Some (e, vals) ->
  merge_row (S (length (a_comps sa) + length (a_comps da))) (a_comps sa) vals (a_comps da) nw = Some (dvals, killed) ->
  exists w', move_entity w (sai, srow) dst nw = ROk tt w' /\ StoreInv w' /\
             (forall k c, k <> e -> abs w' k c = abs w k c) /\
             (forall c, abs w' e c = row_col da dvals c) /\
             (exists cap' ep', w_archs w' = slab_set (slab_set (w_archs w) sai (set_rows sa (swap_remove (a_rows sa) srow))) dst
                                               (set_rows (set_cap da cap' ep') (a_rows da ++ [(e, dvals)]))) /\
             w_aby w' = w_aby w.
Proof.
  intros Hinv Hsa Hda Hne Hrow Hmerge. pose proof Hinv as (Hsm & _ & Hr). destruct (Hr _ _ _ _ _ Hsa Hrow) as [Hge Hvlen].
  pose proof (proj1 (merge_row_conserves _ _ _ _ _ _ _ Hvlen Hmerge)) as Hdlen.
  set (ents1 := upd_by_index (w_ents w) (fst e) (fun _ => (dst, nlen (a_rows da)))).
  assert (Hm0 : SmInv ents1) by exact (upd_inv _ e _ _ Hsm Hge).
  assert (Hoth : forall k, k <> e -> sm_get k ents1 = sm_get k (w_ents w)) by (intros k Hk; exact (upd_get_other _ e _ _ k Hge Hk)).
  pose proof (detach_stored Hinv Hsa Hrow Hm0 Hoth) as Hst.
  pose proof (detach_dead (row:=srow) (a:=sa) Hoth) as Hdom.
  pose proof (detach_keeps Hsa Hrow) as Hkeep.
  pose proof (eq_trans (detach_self Hinv Hsa Hrow (m0:=ents1)) (upd_get_eq _ e _ _ Hge)) as Hge1.
  set (m1 := fixup ents1 (swap_remove (a_rows sa) srow) srow) in *.
  set (sa1 := set_rows sa (swap_remove (a_rows sa) srow)) in *. set (da2 := pushed da (e, dvals)).
  assert (Hda1 : slab_get (slab_set (w_archs w) sai sa1) dst = Some da) by (rewrite slab_get_set_neq by exact Hne; exact Hda).
  assert (Hc2 : a_comps da2 = a_comps da /\ a_rows da2 = a_rows da ++ [(e, dvals)]) by (unfold da2; rewrite pushed_eq; auto). destruct Hc2 as [Hc2 Hr2].
  pose proof (push_stored e m1 _ dst da da2 dvals Hst Hda1 Hge1 Hc2 Hr2 Hdlen) as Hpush.
  pose proof (push_keeps e _ dst da da2 dvals Hda1 Hc2 Hr2) as Hpkeep.
  destruct (push_new e _ dst da da2 dvals Hda1 Hr2) as [Hnew Hnrow].
  exists (moved w sai srow dst sa da e dvals killed).
  split; [apply (move_entity_moves w sai srow dst nw sa da e vals); auto; [congruence|exact (detach_live Hinv Hsa Hrow Hoth)]|].
  rewrite moved_eq. set (wf := set_hs _ _). specialize (Hpush wf eq_refl eq_refl).
  split; [exact Hpush|]. split; [|split; [|split; [exists (a_cap da2), (a_epoch da2); unfold da2; now rewrite <- pushed_eq|reflexivity]]].
  - intros k c Hk. apply abs_kept; [exact Hinv|exact Hpush| |apply Hdom, Hk].
    intros aj b rj vb Hb Hn. destruct (Hkeep aj b rj k vb Hk Hb Hn) as (rj' & b' & Hb' & Hc' & Hn').
    destruct (Hpkeep aj b' rj' _ Hb' Hn') as (b'' & Hb'' & Hc'' & Hn'').
    exists aj, b'', rj'. split; [exact Hb''|split; [congruence|exact Hn'']].
  - intros c. rewrite (abs_of_row wf dst da2 _ e dvals c Hpush Hnew Hnrow). now apply row_col_comps.
Qed.

Corollary move_entity_ok_core w sai srow dst sa da e vals nw dvals killed :
  StoreInv w -> arch_at w sai = Some sa -> arch_at w dst = Some da -> sai <> dst ->
  nget (a_rows sa) srow = Some (e, vals) ->
  merge_row (S (length (a_comps sa) + length (a_comps da))) (a_comps sa) vals (a_comps da) nw = Some (dvals, killed) ->
  exists w', move_entity w (sai, srow) dst nw = ROk tt w' /\ StoreInv w' /\
             (forall k c, k <> e -> abs w' k c = abs w k c) /\
             (forall c, abs w' e c = row_col da dvals c).
Proof.
  intros H1 H2 H3 H4 H5 H6. destruct (move_entity_ok w sai srow dst sa da e vals nw dvals killed H1 H2 H3 H4 H5 H6) as (w' & A & B & C & D & _).
  exists w'. auto.
Qed.

Lemma move_entity_dom w src dst nw w' : move_entity w src dst nw = ROk tt w' -> same_dom (w_ents w) (w_ents w').
Proof.
  destruct src as [sai srow]. destruct (move_entity_spec w sai srow dst nw); intros [= <-]; try apply same_dom_refl.
  - unfold overwritten. rewrite (drop_all_eq _ w). apply same_dom_refl.
  - rewrite moved_eq. cbn [w_ents set_hs set_ents]. eapply same_dom_trans; [apply upd_same_dom|apply fixup_dom].
Qed.

(* on a consistent store the two row operations fail only before they have changed anything: the two late failures
   (the moved entity or the displaced one is missing from the entity map) contradict the invariant *)
Lemma move_entity_fail w src dst nw f w' : StoreInv w -> move_entity w src dst nw = RFail f w' -> w' = w.
Proof.
  intros Hinv. destruct src as [sai srow]. pose proof (proj2 (proj2 Hinv)) as Hr.
  destruct (move_entity_spec w sai srow dst nw) as [| | | | | | |sa da e vals dvals killed _ Hsa _ Hrow _ Hge|sa da e vals dvals killed _ Hsa _ Hrow _ _ Hd];
    intros [= _ <-]; try reflexivity; exfalso; destruct (Hr _ _ _ _ _ Hsa Hrow) as [Hg _]; [congruence|].
  exact (detach_live Hinv Hsa Hrow (fun k Hk => upd_get_other _ e _ _ k Hg Hk) Hd).
Qed.
Lemma remove_entity_fail w loc f w' : StoreInv w -> remove_entity w loc = RFail f w' -> w' = w.
Proof.
  intros Hinv. destruct loc as [ai row]. pose proof Hinv as (Hsm & _ & Hr).
  destruct (remove_entity_spec w ai row) as [| | |a e vals Ha Hrow Hrem|a e vals v m' Ha Hrow Hrem Hd]; intros [= _ <-]; try reflexivity; exfalso.
  - destruct (sm_remove_live _ _ _ (proj1 (Hr _ _ _ _ _ Ha Hrow))) as (m' & X). congruence.
  - exact (detach_live Hinv Ha Hrow (fun k Hk => remove_get_other e _ v m' k Hsm Hrem Hk) Hd).
Qed.
