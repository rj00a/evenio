(* DeadIds.v : ids of removed components, handlers and events are never valid again, whatever happens afterwards (C16, C15).
   Dead m k (SlotMap.v): the slot of k exists and its generation is beyond k's (or the slot is retired).
   The four registries of a world only ever change by slot-map insertion, slot-map removal and in-place updates of
   values; each keeps Dead.  So a key that is dead in one registry stays dead through every call, every
   propagation and every handler behaviour - and a dead key is never valid and is never handed out again. *)
From Coq Require Import List NArith Bool Lia Sorted.
Import ListNotations.
Require Import EV.Base EV.ListN EV.Access EV.Query EV.SlotMap EV.Reserve EV.HList EV.Loop EV.World EV.SlotMapGet
  EV.AccessProofs EV.ArchProofs EV.QueryProofs EV.WorldFrame EV.Layer EV.Store EV.Graph EV.Effects EV.Reach EV.RemoveComp EV.Member EV.Listen
  EV.ReserveW EV.Order EV.Fetch EV.NoUB EV.Sender EV.Users.
Open Scope N_scope.

Definition gens {V} (m : smap V) : list N := map (@gen V) (slots m).
Lemma gens_sget {V W} (m : smap V) (m' : smap W) i : gens m' = gens m -> option_map (@gen W) (sget (slots m') i) = option_map (@gen V) (sget (slots m) i).
Proof. unfold gens. intros H. rewrite !sget_nth, <- !nth_error_map. now rewrite H. Qed.
Lemma Dead_gens {V} (m m' : smap V) k : gens m' = gens m -> Dead m k -> Dead m' k.
Proof.
  intros H (s & Hs & Hd). pose proof (gens_sget m m' (fst k) H) as E. rewrite Hs in E. cbn in E.
  destruct (sget (slots m') (fst k)) as [s'|] eqn:Es'; [|discriminate]. cbn in E. inversion E as [Eg]. exists s'. split; [exact Es'|]. now rewrite Eg.
Qed.
Lemma valid_key_odd {V} (m : smap V) k v : SmInv m -> sm_get k m = Some v -> N.odd (snd k) = true.
Proof.
  intros (_ & Hok & _) H. unfold sm_get in H. destruct (sget (slots m) (fst k)) as [s|] eqn:Es; [|discriminate].
  destruct (gen s =? snd k) eqn:E; [|discriminate]. apply N.eqb_eq in E. destruct (Hok _ _ Es) as [_ Hiff]. rewrite <- E. apply Hiff. congruence.
Qed.
Definition odead {V} (m : smap V) (ko : option key) : Prop := match ko with Some k => Dead m k | None => True end.
Lemma odead_gens {V} (m m' : smap V) ko : gens m' = gens m -> odead m ko -> odead m' ko.
Proof. destruct ko; [apply Dead_gens|auto]. Qed.
Lemma odead_insert {V} f (m : smap V) k0 m' ko : SmInv m -> odead m ko -> insert_with f m = Some (k0, m') -> odead m' ko.
Proof. destruct ko; [apply dead_insert|auto]. Qed.
Lemma odead_remove {V} (m : smap V) k1 v m' ko : SmInv m -> odead m ko -> sm_remove k1 m = Some (v, m') -> odead m' ko.
Proof. destruct ko; [apply dead_remove|auto]. Qed.

Lemma gens_sview {V W} (f : V -> W) (m m' : smap V) : sview f m' = sview f m -> gens m' = gens m.
Proof. intros H. injection H as Hm _. exact (slots_view_gens f m m' Hm). Qed.
Lemma gens_creg w w' : creg w' = creg w -> gens (w_comps w') = gens (w_comps w).
Proof. intros H. injection H as Hm _ _. exact (slots_view_gens cstat _ _ Hm). Qed.
Lemma gens_hv3 w w' : hv3 w' = hv3 w -> gens (w_hs w') = gens (w_hs w).
Proof. apply gens_sview. Qed.
Lemma gens_upd_by_index {V} (m : smap V) i f : gens (upd_by_index m i f) = gens m.
Proof. apply (gens_sview (fun _ : V => tt)). now apply sview_upd_index. Qed.
Lemma zi_of {A} (r : res A) post a w1 : ZOK r post -> r = ROk a w1 -> ZI w1 /\ post a w1.
Proof. intros (Z & _ & P) ->. split; [exact Z|exact P]. Qed.

Lemma gens_fold_upd (skip : N -> bool) (f : cinfo -> cinfo) (cs : list N) : forall m : smap cinfo, gens (fold_left (fun (m : smap cinfo) (c : N) => if skip c then m else upd_by_index m c f) cs m) = gens m.
Proof. induction cs as [|c t IH]; intros m; cbn [fold_left]; [reflexivity|]. rewrite IH. destruct (skip c); [reflexivity|apply gens_upd_by_index]. Qed.

Lemma gens4_rc_step cidx ctag w ai :
  gens (w_comps (rc_step cidx ctag w ai)) = gens (w_comps w) /\ gens (w_hs (rc_step cidx ctag w ai)) = gens (w_hs w) /\
  w_gev (rc_step cidx ctag w ai) = w_gev w /\ w_tev (rc_step cidx ctag w ai) = w_tev w.
Proof.
  apply rc_step_cases; [repeat split|]. intros a D _.
  split; [apply gens_fold_upd|split; [exact (gens_hv3 _ _ (hv3_hfix _ _ (hfix_notify_remove_with _ ai a)))|split; reflexivity]].
Qed.

Section Dead.
Variables kc kh kg kt : option key.
Definition DD (w : world) : Prop := odead (w_comps w) kc /\ odead (w_hs w) kh /\ odead (w_gev w) kg /\ odead (w_tev w) kt.

Lemma DD_mono w w' : (odead (w_comps w) kc -> odead (w_comps w') kc) -> (odead (w_hs w) kh -> odead (w_hs w') kh) ->
  (odead (w_gev w) kg -> odead (w_gev w') kg) -> (odead (w_tev w) kt -> odead (w_tev w') kt) -> DD w -> DD w'.
Proof. intros A B C D (H1 & H2 & H3 & H4). repeat split; auto. Qed.
Lemma DD_gens w w' : gens (w_comps w') = gens (w_comps w) -> gens (w_hs w') = gens (w_hs w) ->
  gens (w_gev w') = gens (w_gev w) -> gens (w_tev w') = gens (w_tev w) -> DD w -> DD w'.
Proof. intros A B C D. apply DD_mono; now apply odead_gens. Qed.

Lemma ZI_sminv w : ZI w -> SmInv (w_comps w) /\ SmInv (w_tev w) /\ SmInv (w_gev w) /\ SmInv (w_hs w).
Proof.
  intros [[HD _] _]. destruct (DI_parts _ HD) as (HF & ((S & _) & _) & _ & _). destruct (FInv_parts _ HF) as (_ & _ & (S1 & S2 & _)).
  destruct HD as [[[_ X] _] _]. auto.
Qed.

Variable beh : hinfo -> logent -> N -> script.

Lemma rbind_DD {A B} (r : res A) (f : A -> world -> res B) :
  DD (res_world r) -> (forall a w1, r = ROk a w1 -> DD w1 -> DD (res_world (f a w1))) -> DD (res_world (rbind r f)).
Proof. intros H Hf. destruct r as [a w1|e w1]; cbn [rbind res_world] in *; [now apply Hf|exact H]. Qed.

Lemma flush_DD q w : DD w -> DD (res_world (flush beh q w)).
Proof.
  apply DD_gens.
  - apply gens_creg, creg_flush.
  - apply gens_hv3, hv3_flush.
  - pose proof (registries_flush beh q w) as H. unfold registries in H. now replace (w_gev (res_world (flush beh q w))) with (w_gev w) by congruence.
  - pose proof (registries_flush beh q w) as H. unfold registries in H. now replace (w_tev (res_world (flush beh q w))) with (w_tev w) by congruence.
Qed.

Lemma DD_ev_drop w t tag ev : DD w -> DD (ev_drop w t tag ev).
Proof. destruct (quiet_fields _ _ (quiet_ev_drop w t tag ev)) as (A & _ & B & C & D). apply DD_gens; congruence. Qed.

(* The layer over ZI, which is needed for the slot-map invariant of the registries only: each place changes one
   registry, by an insertion or a removal, and at most the values of another. *)
Definition DD_over : Layer beh ZI.
Proof.
  apply (plain beh DD); [|intros q w _ HD _; now apply flush_DD]. intros b w w' Hp HZ HD _. revert HD.
  destruct Hp as [w w' Hq|w tag k m _ Ei|w tag k m _ Ei|w0 tag kind k m _ _ _ Ei|sh w c w1 k w3 _ _ Eh|w1 k h w2 Eh|k w w1 w2 info m _ _ _ _ Er|k w w1 w2 info m _ _ _ _ Er].
  - destruct (quiet_fields _ _ Hq) as (A & _ & B & C & D). apply DD_gens; congruence.
  - apply DD_mono; try exact (fun H => H).
    intros H. exact (odead_insert _ _ _ _ _ (proj1 (proj2 (proj2 (ZI_sminv w HZ)))) H Ei).
  - apply DD_mono; try exact (fun H => H).
    intros H. exact (odead_insert _ _ _ _ _ (proj1 (ZI_sminv w HZ)) H Ei).
  - assert (Ht : odead (w_tev w0) kt -> odead m kt) by (intros H; exact (odead_insert _ _ _ _ _ (proj1 (proj2 (ZI_sminv w0 HZ))) H Ei)).
    destruct kind; apply DD_mono; try exact (fun H => H); try exact Ht; apply odead_gens, gens_upd_by_index.
  - pose proof (handler_entry_kreg sh c w1 k w3 Eh) as K. unfold kreg in K. injection K as Ec _ Et.
    pose proof (proj2 (handler_entry_structure sh c w1 k w3 Eh)) as Eg. destruct (handler_entry_inv sh c w1 k w3 Eh) as (rv & acc & hs & _ & _ & Ei & E3).
    apply DD_mono; rewrite ?Ec, ?Eg, ?Et; try exact (fun H => H).
    intros H. rewrite E3. eapply odead_gens; [exact (gens_hv3 _ _ (hv3_archs_register_handler _ k))|]. exact (odead_insert _ _ _ _ _ (proj2 (proj2 (proj2 (ZI_sminv w1 HZ)))) H Ei).
  - destruct (handlers_remove_inv w1 k h w2 Eh) as (hs & Er & ->).
    apply DD_mono; try exact (fun H => H). intros H. exact (odead_remove _ _ _ _ _ (proj2 (proj2 (proj2 (ZI_sminv w1 HZ)))) H Er).
  - apply DD_mono; try exact (fun H => H).
    intros H. exact (odead_remove _ _ _ _ _ (proj1 (proj2 (proj2 (ZI_sminv w2 HZ)))) H Er).
  - assert (Ht : odead (w_tev w2) kt -> odead m kt) by (intros H; exact (odead_remove _ _ _ _ _ (proj1 (proj2 (ZI_sminv w2 HZ))) H Er)).
    unfold tev_exit_world. cbv zeta. destruct (e_kind info); apply DD_mono; try exact (fun H => H); try exact Ht; apply odead_gens, gens_upd_by_index.
Defined.

Lemma gens4_archs_remove_component cidx ctag w l :
  gens (w_comps (archs_remove_component w cidx ctag l)) = gens (w_comps w) /\ gens (w_hs (archs_remove_component w cidx ctag l)) = gens (w_hs w) /\
  w_gev (archs_remove_component w cidx ctag l) = w_gev w /\ w_tev (archs_remove_component w cidx ctag l) = w_tev w.
Proof.
  pose proof (registries_archs_remove_component cidx ctag w l) as Hr. unfold registries in Hr.
  split; [|split; [apply gens_hv3, hv3_archs_remove_component|split; congruence]].
  apply (arc_pres cidx ctag (fun w0 => gens (w_comps w0))); [|reflexivity]. intros w0 ai a D. apply gens_fold_upd.
Qed.

Lemma DD_over_comp_exit : comp_exit_ok DD_over.
Proof.
  intros k w w1 dk w2 w3 w4 ci w5 ci' m _ _ _ _ _ _ _ _ _ _ _ _ _ _ _ _ HZ HD Er _. unfold comp_exit_world, refresh_cursor.
  destruct (gens4_archs_remove_component (fst k) (c_tag ci') (set_comps w5 m (aremove (c_tag ci') (w_cby w5))) (c_member_of ci')) as (A & B & C & D).
  eapply DD_gens; [exact A|exact B|exact (f_equal gens C)|exact (f_equal gens D)|].
  revert HD. apply DD_mono; try exact (fun H => H). intros H. exact (odead_remove _ _ _ _ _ (proj1 (ZI_sminv w5 HZ)) H Er).
Qed.

Definition DD_layer : Layer beh (fun _ => True) := stack (ZI_layer beh) DD_over (fun w _ HJ => proj1 (ZI_layer_J beh w) HJ).
Lemma DD_layer_J w : lJ DD_layer w <-> ZI w /\ DD w.
Proof. split; intros [A B]; (split; [apply (ZI_layer_J beh w), A|exact B]). Qed.
Lemma DD_comp_exit : comp_exit_ok DD_layer.
Proof. apply stack_comp_exit; [apply ZI_comp_exit|exact DD_over_comp_exit]. Qed.

Lemma tri_DD {A} (r : res A) w Q : tri beh DD_layer w r Q -> DD (res_world r).
Proof. intros H. exact (proj2 (proj1 (tri_J beh DD_layer _ _ _ H))). Qed.
Lemma keeps_DD {A} (r : res A) : keeps beh DD_layer r -> DD (res_world r).
Proof. intros H. exact (proj2 (proj1 H)). Qed.

Lemma gev_DD fuel : forall tag w, ZI w -> DD w ->
  DD (res_world (add_global_event beh fuel tag w)) /\ forall ev, DD (res_world (send_global beh fuel tag ev w)).
Proof.
  intros tag w HZ HD. destruct (gev_tri beh DD_layer fuel tag w (proj2 (DD_layer_J w) (conj HZ HD))) as [A B].
  split; [exact (proj2 (proj1 (tri_J beh DD_layer _ _ _ A)))|intros ev; exact (proj2 (proj1 (tri_J beh DD_layer _ _ _ (B ev))))].
Qed.
Lemma send_global_DD tag ev w : ZI w -> DD w -> DD (res_world (send_global beh RFUEL tag ev w)).
Proof. intros HZ HD. exact (proj2 (gev_DD RFUEL tag w HZ HD) ev). Qed.
Lemma add_global_event_DD tag w : ZI w -> DD w -> DD (res_world (add_global_event beh RFUEL tag w)).
Proof. intros HZ HD. exact (proj1 (gev_DD RFUEL tag w HZ HD)). Qed.
Lemma add_component_DD tag w : ZI w -> DD w -> DD (res_world (add_component beh tag w)).
Proof. intros HZ HD. exact (tri_DD _ _ _ (add_component_tri beh DD_layer tag w (proj2 (DD_layer_J w) (conj HZ HD)))). Qed.
Lemma add_targeted_event_DD tag w : ZI w -> DD w -> DD (res_world (add_targeted_event beh tag w)).
Proof. intros HZ HD. exact (tri_DD _ _ _ (add_targeted_event_tri beh DD_layer tag w (proj2 (DD_layer_J w) (conj HZ HD)))). Qed.
Lemma send_to_DD tag target ev w : ZI w -> DD w -> DD (res_world (send_to beh tag target ev w)).
Proof. intros HZ HD. exact (tri_DD _ _ _ (send_to_tri beh DD_layer tag target ev w (proj2 (DD_layer_J w) (conj HZ HD)))). Qed.
Lemma resolve_query_DD q : forall w, ZI w -> DD w -> DD (res_world (resolve_query beh q w)).
Proof. intros w HZ HD. exact (tri_DD _ _ _ (resolve_query_tri beh DD_layer q w (proj2 (DD_layer_J w) (conj HZ HD)))). Qed.
Lemma register_set_DD evs : forall w, ZI w -> DD w -> DD (res_world (register_set beh evs w)).
Proof. intros w HZ HD. exact (tri_DD _ _ _ (register_set_tri beh DD_layer evs w (proj2 (DD_layer_J w) (conj HZ HD)))). Qed.
Lemma add_handler_DD sh w : ZI w -> DD w -> DD (res_world (add_handler beh sh w)).
Proof. intros HZ HD. exact (proj2 (proj1 (tri_J beh DD_layer _ _ _ (add_handler_tri beh DD_layer sh w (proj2 (DD_layer_J w) (conj HZ HD)))))). Qed.
Lemma init_param_DD p c w : ZI w -> DD w -> DD (res_world (init_param beh p c w)).
Proof. intros HZ HD. exact (proj2 (proj1 (tri_J beh DD_layer _ _ _ (init_param_tri beh DD_layer p c w (proj2 (DD_layer_J w) (conj HZ HD)))))). Qed.
Lemma init_params_DD ps : forall c w, ZI w -> DD w -> CfInv3 c w -> CfR c w -> DD (res_world (init_params beh ps c w)).
Proof. intros c w HZ HD _ _. exact (tri_DD _ _ _ (init_params_tri beh DD_layer ps c w (proj2 (DD_layer_J w) (conj HZ HD)))). Qed.
Lemma remove_handler_DD k w : ZI w -> DD w -> DD (res_world (remove_handler beh k w)).
Proof. intros HZ HD. exact (keeps_DD _ (remove_handler_keeps beh DD_layer k w (proj2 (DD_layer_J w) (conj HZ HD)))). Qed.
Lemma remove_handlers_DD ks : forall w, ZI w -> DD w -> DD (res_world (remove_handlers beh ks w)).
Proof. intros w HZ HD. exact (keeps_DD _ (remove_handlers_keeps beh DD_layer ks w (proj2 (DD_layer_J w) (conj HZ HD)))). Qed.
Lemma remove_global_event_DD k w : ZI w -> DD w -> DD (res_world (remove_global_event beh k w)).
Proof. intros HZ HD. exact (keeps_DD _ (remove_global_event_keeps beh DD_layer k w (proj2 (DD_layer_J w) (conj HZ HD)))). Qed.
Lemma remove_targeted_event_DD k w : ZI w -> DD w -> DD (res_world (remove_targeted_event beh k w)).
Proof. intros HZ HD. exact (keeps_DD _ (remove_targeted_event_keeps beh DD_layer k w (proj2 (DD_layer_J w) (conj HZ HD)))). Qed.
Lemma remove_tevents_DD ks : forall w, ZI w -> DD w -> DD (res_world (remove_tevents beh ks w)).
Proof. intros w HZ HD. exact (keeps_DD _ (remove_tevents_keeps beh DD_layer ks w (proj2 (DD_layer_J w) (conj HZ HD)))). Qed.
Lemma remove_component_DD k w : ZI w -> DD w -> DD (res_world (remove_component beh k w)).
Proof. intros HZ HD. exact (proj2 (proj1 (remove_component_keeps beh DD_layer k w DD_comp_exit (proj2 (DD_layer_J w) (conj HZ HD))))). Qed.
Lemma op_spawn_DD w : ZI w -> DD w -> DD (res_world (op_spawn beh w)).
Proof. intros HZ HD. exact (tri_DD _ _ _ (op_spawn_tri beh DD_layer w (proj2 (DD_layer_J w) (conj HZ HD)))). Qed.
Lemma op_insert_DD e ktag w : ZI w -> DD w -> DD (res_world (op_insert beh e ktag w)).
Proof. intros HZ HD. exact (tri_DD _ _ _ (op_insert_tri beh DD_layer e ktag w (proj2 (DD_layer_J w) (conj HZ HD)))). Qed.
Theorem run_top_all_DD w o : ZI w -> DD w -> DD (run_top_all beh w o).
Proof. intros HZ HD. exact (proj2 (proj1 (DD_layer_J _) (run_top_all_keeps beh DD_layer DD_comp_exit w o (proj2 (DD_layer_J w) (conj HZ HD))))). Qed.

(* from any world that satisfies the invariants (in particular any reachable one): through every further history *)
Theorem dead_ids_stay_dead ops : forall w, ZI w -> DD w -> DD (fold_left (run_top_all beh) ops w).
Proof.
  intros w HZ HD. exact (proj2 (proj1 (DD_layer_J _) (history_keeps beh DD_layer ops w DD_comp_exit (proj2 (DD_layer_J w) (conj HZ HD))))).
Qed.
End Dead.

Section Removal.
Variable beh : hinfo -> logent -> N -> script.
Notation ZL := (ZI_layer beh).

Lemma J_sminv w : lJ ZL w -> SmInv (w_comps w) /\ SmInv (w_tev w) /\ SmInv (w_gev w) /\ SmInv (w_hs w).
Proof. intros H. exact (ZI_sminv w (proj1 (ZI_layer_J beh w) H)). Qed.

Lemma remove_handler_dead k w w' : ZI w -> remove_handler beh k w = ROk true w' -> N.odd (snd k) = true /\ Dead (w_hs w') k.
Proof.
  intros HJ. apply (proj2 (ZI_layer_J beh w)) in HJ. unfold remove_handler. destruct (sm_get k (w_hs w)) as [v0|] eqn:Eg; [|discriminate].
  pose proof (proj1 (tri_J beh ZL _ _ _ (send_global_tri beh ZL G_RMH (mkEv 0 0 k) w HJ))) as J1.
  destruct (send_global beh RFUEL G_RMH (mkEv 0 0 k) w) as [[] w1|f w1]; cbn [rbind res_world] in *; [|discriminate].
  unfold handlers_remove. destruct (sm_remove k (w_hs w1)) as [[h1 hs]|] eqn:Er; [|discriminate]. intros H. inversion H; subst w'.
  split; [exact (valid_key_odd _ _ _ (proj2 (proj2 (proj2 (J_sminv w HJ)))) Eg)|].
  unfold archs_remove_handler. cbn [w_hs set_archs set_hreg]. exact (remove_dead _ _ _ _ (proj2 (proj2 (proj2 (J_sminv w1 J1)))) Er).
Qed.

Lemma remove_global_event_dead k w w' : ZI w -> remove_global_event beh k w = ROk true w' -> N.odd (snd k) = true /\ Dead (w_gev w') k.
Proof.
  intros HZ E. destruct (remove_global_event_inv beh ZL k w w' (proj2 (ZI_layer_J beh w) HZ) E) as (w1 & w2 & info & m & _ & _ & _ & J2 & Er & ->).
  unfold remove_global_event in E. destruct (sm_get k (w_gev w)) as [v0|] eqn:Eg; [clear E|discriminate].
  split; [exact (valid_key_odd _ _ _ (proj1 (proj2 (proj2 (ZI_sminv w HZ)))) Eg)|exact (remove_dead _ _ _ _ (proj1 (proj2 (proj2 (J_sminv w2 J2)))) Er)].
Qed.

Lemma remove_targeted_event_dead k w w' : ZI w -> remove_targeted_event beh k w = ROk true w' -> N.odd (snd k) = true /\ Dead (w_tev w') k.
Proof.
  intros HZ E. destruct (remove_targeted_event_inv beh ZL k w w' (proj2 (ZI_layer_J beh w) HZ) E) as (w1 & w2 & info & m & _ & _ & _ & J2 & Er & ->).
  unfold remove_targeted_event in E. destruct (sm_get k (w_tev w)) as [v0|] eqn:Eg; [clear E|discriminate].
  split; [exact (valid_key_odd _ _ _ (proj1 (proj2 (ZI_sminv w HZ))) Eg)|].
  pose proof (remove_dead _ _ _ _ (proj1 (proj2 (J_sminv w2 J2))) Er) as Hd. unfold tev_exit_world. cbv zeta. destruct (e_kind info); exact Hd.
Qed.

Lemma remove_component_dead k w w' : ZI w -> remove_component beh k w = ROk true w' -> N.odd (snd k) = true /\ Dead (w_comps w') k.
Proof.
  intros HZ E. destruct (remove_component_inv beh ZL k w w' (proj2 (ZI_layer_J beh w) HZ) E) as (w1 & dk & w2 & w3 & w4 & ci & w5 & ci' & m & _ & _ & _ & _ & _ & _ & _ & _ & _ & _ & J5 & Er & ->).
  unfold remove_component in E. destruct (sm_get k (w_comps w)) as [v0|] eqn:Eg; [clear E|discriminate].
  split; [exact (valid_key_odd _ _ _ (proj1 (ZI_sminv w HZ)) Eg)|].
  destruct (gens4_archs_remove_component (fst k) (c_tag ci') (set_comps w5 m (aremove (c_tag ci') (w_cby w5))) (c_member_of ci')) as (A & _).
  unfold comp_exit_world, refresh_cursor. cbn [w_comps set_res]. eapply Dead_gens; [exact A|]. exact (remove_dead _ _ _ _ (proj1 (J_sminv w5 J5)) Er).
Qed.

Lemma never_valid_again {V A} (reg : world -> smap V) kc kh kg kt k (r : res A) a w' ops :
  (forall w0, Dead (reg w0) k <-> DD kc kh kg kt w0) -> keeps beh ZL r -> r = ROk a w' -> N.odd (snd k) = true /\ Dead (reg w') k ->
  sm_get k (reg (fold_left (run_top_all beh) ops w')) = None.
Proof.
  intros HD [HJ _] -> [Hk Hd]. apply dead_get; [exact Hk|]. apply HD.
  apply dead_ids_stay_dead; [exact (proj1 (ZI_layer_J beh w') HJ)|now apply HD].
Qed.

(* the four statements of C16 / C15: once removed, never valid again - through every later history of calls,
   for every handler behaviour *)
Theorem removed_component_id_never_valid_again k w w' ops : ZI w -> remove_component beh k w = ROk true w' ->
  sm_get k (w_comps (fold_left (run_top_all beh) ops w')) = None.
Proof.
  intros HZ E.
  apply (never_valid_again w_comps (Some k) None None None k (remove_component beh k w) true w' ops); [unfold DD, odead; tauto|exact (remove_component_keeps beh ZL k w (ZI_comp_exit beh) (proj2 (ZI_layer_J beh w) HZ))|exact E|exact (remove_component_dead k w w' HZ E)].
Qed.
Theorem removed_handler_id_never_valid_again k w w' ops : ZI w -> remove_handler beh k w = ROk true w' ->
  sm_get k (w_hs (fold_left (run_top_all beh) ops w')) = None.
Proof.
  intros HZ E.
  apply (never_valid_again w_hs None (Some k) None None k (remove_handler beh k w) true w' ops); [unfold DD, odead; tauto|exact (remove_handler_keeps beh ZL k w (proj2 (ZI_layer_J beh w) HZ))|exact E|exact (remove_handler_dead k w w' HZ E)].
Qed.
Theorem removed_global_event_id_never_valid_again k w w' ops : ZI w -> remove_global_event beh k w = ROk true w' ->
  sm_get k (w_gev (fold_left (run_top_all beh) ops w')) = None.
Proof.
  intros HZ E.
  apply (never_valid_again w_gev None None (Some k) None k (remove_global_event beh k w) true w' ops); [unfold DD, odead; tauto|exact (remove_global_event_keeps beh ZL k w (proj2 (ZI_layer_J beh w) HZ))|exact E|exact (remove_global_event_dead k w w' HZ E)].
Qed.
Theorem removed_targeted_event_id_never_valid_again k w w' ops : ZI w -> remove_targeted_event beh k w = ROk true w' ->
  sm_get k (w_tev (fold_left (run_top_all beh) ops w')) = None.
Proof.
  intros HZ E.
  apply (never_valid_again w_tev None None None (Some k) k (remove_targeted_event beh k w) true w' ops); [unfold DD, odead; tauto|exact (remove_targeted_event_keeps beh ZL k w (proj2 (ZI_layer_J beh w) HZ))|exact E|exact (remove_targeted_event_dead k w w' HZ E)].
Qed.
End Removal.
