(* SparseMap.v : src/sparse_map.rs - the sparse set behind every fetcher cache (FetcherState::map:
   SparseMap<ArchetypeIdx, ArchState>) - as an executable model with its unchecked operations made explicit,
   and the theorems: under the invariant SpInv no operation reaches an unchecked failure, SpInv is kept, and
   the structure refines a finite map key -> value (insert / remove / get are the map operations; keys() lists
   each key of the map once; values() is aligned with keys()).
     sparse  : key -> position in dense (U32MAX = none)
     dense   : the values, contiguous
     indices : the key of each position
   Keys are u32 indices; U32MAX = u32::MAX is the "vacant" marker (K::MAX). *)
From Coq Require Import List NArith Bool Lia.
Import ListNotations.
Require Import EV.Base EV.ListN.
Open Scope N_scope.

Section SparseMap.
Context {V : Type}.

Record spm := mkSp { sp_sparse : list N; sp_dense : list V; sp_indices : list N }.
Definition sp_empty : spm := mkSp [] [] [].

(* outcome of an operation: a value, the documented panic (insert with K::MAX), or an unchecked failure
   (get_unchecked out of bounds / assume_unchecked false), identified by its source line *)
Inductive out (A : Type) := Val (a : A) | Panic | UB (line : N).
Arguments Val {A}. Arguments Panic {A}. Arguments UB {A}.

(* sparse_map.rs:26-36 *)
Definition sp_get (m : spm) (k : N) : out (option V) :=
  match nget (sp_sparse m) k with
  | None => Val None
  | Some idx =>
      if U32MAX <=? idx then Val None
      else match nget (sp_dense m) idx with Some v => Val (Some v) | None => UB 33 end
  end.

(* sparse_map.rs:57-89 *)
Definition sp_insert (m : spm) (k : N) (v : V) : out (option V * spm) :=
  if k =? U32MAX then Panic else
  let sparse := nrepeat_to (sp_sparse m) (N.to_nat k + 1) U32MAX in
  match nget sparse k with
  | None => UB 71
  | Some idx =>
      if idx =? U32MAX then
        Val (None, mkSp (nset sparse k (nlen (sp_dense m))) (sp_dense m ++ [v]) (sp_indices m ++ [k]))
      else match nget (sp_dense m) idx with
           | Some old => Val (Some old, mkSp sparse (nset (sp_dense m) idx v) (sp_indices m))
           | None => UB 83
           end
  end.

(* sparse_map.rs:92-115 *)
Definition sp_remove (m : spm) (k : N) : out (option V * spm) :=
  match nget (sp_sparse m) k with
  | None => Val (None, m)
  | Some idx =>
      let sparse := nset (sp_sparse m) k U32MAX in
      if idx =? U32MAX then Val (None, mkSp sparse (sp_dense m) (sp_indices m)) else
      match nget (sp_dense m) idx with
      | None => UB 98
      | Some res =>
          if negb (idx <? nlen (sp_indices m)) then UB 102 else
          let dense := swap_remove (sp_dense m) idx in
          let indices := swap_remove (sp_indices m) idx in
          match nget indices idx with
          | None => Val (Some res, mkSp sparse dense indices)
          | Some moved =>
              match nget sparse moved with
              | None => UB 107
              | Some _ => Val (Some res, mkSp (nset sparse moved idx) dense indices)
              end
          end
      end
  end.

Definition sp_keys (m : spm) : list N := sp_indices m.
Definition sp_values (m : spm) : list V := sp_dense m.

(* sparse_map.rs:129-142: drop trailing vacant entries of [sparse] *)
Fixpoint strip_max (r : list N) : list N :=
  match r with
  | [] => []
  | x :: t => if x =? U32MAX then strip_max t else r
  end.
Definition sp_shrink (m : spm) : spm := mkSp (rev (strip_max (rev (sp_sparse m)))) (sp_dense m) (sp_indices m).

Definition sp_abs (m : spm) (k : N) : option V :=
  match nget (sp_sparse m) k with
  | Some idx => if U32MAX <=? idx then None else nget (sp_dense m) idx
  | None => None
  end.

Definition SpInv (m : spm) : Prop :=
  nlen (sp_dense m) = nlen (sp_indices m) /\ nlen (sp_dense m) < U32MAX /\
  (forall i k, nget (sp_indices m) i = Some k -> k <> U32MAX /\ nget (sp_sparse m) k = Some i) /\
  (forall k i, nget (sp_sparse m) k = Some i -> i <> U32MAX -> nget (sp_indices m) i = Some k) /\
  (forall k i, nget (sp_sparse m) k = Some i -> i <= U32MAX).

Lemma nget_nrepeat_to' {A} (d : A) n : forall l i, nget (nrepeat_to l n d) i = match nget l i with Some x => Some x | None => if i <? N.of_nat n then Some d else None end.
Proof. apply nget_nrepeat_to. Qed.
Lemma nget_swap_remove' {A} (l : list A) i j : i < nlen l ->
  nget (swap_remove l i) j =
    if j =? i then (if i =? nlen l - 1 then None else nget l (nlen l - 1))
    else if j <? nlen l - 1 then nget l j else None.
Proof. apply nget_swap_remove. Qed.
Lemma nlen_swap_remove_le {A} (l : list A) i : nlen (swap_remove l i) <= nlen l.
Proof.
  destruct l as [|x t] using rev_ind; [rewrite swap_remove_nil; lia|]. rewrite swap_remove_snoc, nlen_app. destruct (i =? nlen t); [lia|]. rewrite nlen_nset. lia.
Qed.

(* the last conjunct of SpInv follows from the others: an entry other than the marker is a position of dense *)
Lemma SpInv_intro m : nlen (sp_dense m) = nlen (sp_indices m) -> nlen (sp_dense m) < U32MAX ->
  (forall i k, nget (sp_indices m) i = Some k -> k <> U32MAX /\ nget (sp_sparse m) k = Some i) ->
  (forall k i, nget (sp_sparse m) k = Some i -> i <> U32MAX -> nget (sp_indices m) i = Some k) -> SpInv m.
Proof.
  intros Hl Hm H1 H2. refine (conj Hl (conj Hm (conj H1 (conj H2 _)))). intros k i E.
  destruct (N.eq_dec i U32MAX) as [->|Hi]; [lia|]. apply H2 in E; [|exact Hi]. apply nget_some_lt in E. lia.
Qed.
Lemma SpInv_pos m k i : SpInv m -> nget (sp_sparse m) k = Some i -> i <> U32MAX -> nget (sp_indices m) i = Some k /\ i < nlen (sp_dense m).
Proof. intros (Hl & _ & _ & H2 & _) E Hi. pose proof (H2 k i E Hi) as X. split; [exact X|]. rewrite Hl. eapply nget_some_lt; eauto. Qed.

Lemma sp_abs_none m k : nget (sp_sparse m) k = None -> sp_abs m k = None.
Proof. unfold sp_abs. now intros ->. Qed.
Lemma sp_abs_vacant m k : nget (sp_sparse m) k = Some U32MAX -> sp_abs m k = None.
Proof. unfold sp_abs. now intros ->. Qed.
Lemma sp_abs_at m k i : SpInv m -> nget (sp_sparse m) k = Some i -> i <> U32MAX -> sp_abs m k = nget (sp_dense m) i.
Proof. intros (_ & _ & _ & _ & H3) E Hi. specialize (H3 k i E). unfold sp_abs. rewrite E. destruct (N.leb_spec U32MAX i); [lia|reflexivity]. Qed.
Lemma sp_abs_ext m m' k : nget (sp_sparse m') k = nget (sp_sparse m) k ->
  (forall i, nget (sp_sparse m) k = Some i -> i <> U32MAX -> nget (sp_dense m') i = nget (sp_dense m) i) -> sp_abs m' k = sp_abs m k.
Proof.
  unfold sp_abs. intros -> H. destruct (nget (sp_sparse m) k) as [i|]; [|reflexivity]. destruct (N.leb_spec U32MAX i); [reflexivity|]. apply H; [reflexivity|lia].
Qed.

Lemma sp_abs_index m i k : SpInv m -> nget (sp_indices m) i = Some k -> sp_abs m k = nget (sp_dense m) i.
Proof.
  intros HI Hi. pose proof HI as (Hl & Hm & H1 & _). destruct (H1 i k Hi) as [_ Hs]. apply (sp_abs_at m k i HI Hs). apply nget_some_lt in Hi. lia.
Qed.
Lemma sp_abs_some m k v : SpInv m -> sp_abs m k = Some v <-> exists i, nget (sp_indices m) i = Some k /\ nget (sp_dense m) i = Some v.
Proof.
  intros HI. split.
  - unfold sp_abs. destruct (nget (sp_sparse m) k) as [idx|] eqn:E; [|discriminate]. destruct (N.leb_spec U32MAX idx); [discriminate|].
    intros Hv. exists idx. split; [apply (SpInv_pos m k idx HI E); lia|exact Hv].
  - intros (i & Hi & Hv). now rewrite (sp_abs_index m i k HI Hi).
Qed.

(* only the entries of sparse other than the marker matter: growing sparse by markers (insert) and cutting
   trailing markers off (shrink_to_fit) change neither the invariant nor the map *)
Lemma SpInv_sparse_equiv m s' : (forall k i, i <> U32MAX -> nget s' k = Some i <-> nget (sp_sparse m) k = Some i) -> SpInv m ->
  SpInv (mkSp s' (sp_dense m) (sp_indices m)) /\ forall k, sp_abs (mkSp s' (sp_dense m) (sp_indices m)) k = sp_abs m k.
Proof.
  intros He HI. pose proof HI as (Hl & Hm & H1 & H2 & _). assert (HI' : SpInv (mkSp s' (sp_dense m) (sp_indices m))).
  { apply SpInv_intro; cbn [sp_sparse sp_dense sp_indices]; [exact Hl|exact Hm| |].
    + intros i k Hi. destruct (H1 i k Hi) as [A B]. split; [exact A|]. apply He; [|exact B]. apply nget_some_lt in Hi. lia.
    + intros k i E Hi. apply H2; [|exact Hi]. now apply He. }
  split; [exact HI'|].
  (* both maps are read off the same dense and indices *)
  intros k. destruct (sp_abs m k) as [v|] eqn:E; [apply (sp_abs_some _ k v HI'), (sp_abs_some m k v HI), E|].
  destruct (sp_abs (mkSp s' (sp_dense m) (sp_indices m)) k) as [v|] eqn:E'; [|reflexivity]. apply (sp_abs_some _ k v HI'), (sp_abs_some m k v HI) in E'. congruence.
Qed.

Theorem sp_get_spec m k : SpInv m -> sp_get m k = Val (sp_abs m k).
Proof.
  intros HI. unfold sp_get, sp_abs. destruct (nget (sp_sparse m) k) as [idx|] eqn:E; [|reflexivity].
  destruct (N.leb_spec U32MAX idx) as [L|L]; [reflexivity|]. destruct (SpInv_pos m k idx HI E) as [_ Hlt]; [lia|].
  destruct (nget_lt_some _ _ Hlt) as [v Hv]. now rewrite Hv.
Qed.

Lemma sp_push_spec m k v : SpInv m -> nget (sp_sparse m) k = Some U32MAX -> k <> U32MAX -> nlen (sp_dense m) + 1 < U32MAX ->
  let m' := mkSp (nset (sp_sparse m) k (nlen (sp_dense m))) (sp_dense m ++ [v]) (sp_indices m ++ [k]) in
  SpInv m' /\ sp_abs m' k = Some v /\ (forall k', k' <> k -> sp_abs m' k' = sp_abs m k').
Proof.
  intros HI Es Hk Hcap m'. pose proof HI as (Hl & Hm & H1 & H2 & _).
  assert (Hkl : k < nlen (sp_sparse m)) by (eapply nget_some_lt; eauto).
  assert (Hfresh : forall i, nget (sp_indices m) i <> Some k).
  { intros i Hi. destruct (H1 i k Hi) as [_ X]. apply nget_some_lt in Hi. rewrite Es in X. inversion X. lia. }
  assert (HI' : SpInv m').
  { apply SpInv_intro; unfold m'; cbn [sp_sparse sp_dense sp_indices].
    + now rewrite !nlen_app, Hl.
    + rewrite nlen_app. exact Hcap.
    + intros i k0 Hi. apply nget_snoc_inv in Hi as [Hi|[-> ->]].
      * destruct (H1 i k0 Hi) as [A B]. split; [exact A|]. rewrite nget_nset_neq; [exact B|]. intros ->. exact (Hfresh i Hi).
      * split; [exact Hk|]. rewrite <- Hl. now apply nget_nset_eq.
    + intros k0 i Hs Hi. destruct (N.eq_dec k k0) as [<-|E].
      * rewrite nget_nset_eq in Hs by exact Hkl. inversion Hs. rewrite Hl. apply nget_snoc_last.
      * rewrite nget_nset_neq in Hs by exact E. apply nget_app_some. now apply H2. }
  split; [exact HI'|split].
  - rewrite (sp_abs_at m' k (nlen (sp_dense m)) HI'); [apply nget_snoc_last|now apply nget_nset_eq|lia].
  - intros k' Hne. apply sp_abs_ext; unfold m'; cbn [sp_sparse sp_dense]; [apply nget_nset_neq; congruence|].
    intros i E Hi. apply nget_app_l. now apply (SpInv_pos m k' i HI E).
Qed.

Lemma sp_update_spec m k idx v : SpInv m -> nget (sp_sparse m) k = Some idx -> idx <> U32MAX ->
  let m' := mkSp (sp_sparse m) (nset (sp_dense m) idx v) (sp_indices m) in
  SpInv m' /\ sp_abs m' k = Some v /\ (forall k', k' <> k -> sp_abs m' k' = sp_abs m k').
Proof.
  intros HI Es Ei m'. pose proof HI as (Hl & Hm & H1 & H2 & _). destruct (SpInv_pos m k idx HI Es Ei) as [Hik Hlt].
  assert (HI' : SpInv m') by (apply SpInv_intro; unfold m'; cbn [sp_sparse sp_dense sp_indices]; rewrite ?nlen_nset; assumption).
  split; [exact HI'|split].
  - rewrite (sp_abs_at m' k idx HI' Es Ei). now apply nget_nset_eq.
  - intros k' Hne. apply sp_abs_ext; [reflexivity|]. intros i E Hi. apply nget_nset_neq. intros <-. pose proof (H2 _ _ E Ei). congruence.
Qed.

Lemma pad_get (sparse : list N) n k0 :
  nget (nrepeat_to sparse n U32MAX) k0 = match nget sparse k0 with Some x => Some x | None => if k0 <? N.of_nat n then Some U32MAX else None end.
Proof. apply nget_nrepeat_to'. Qed.
Lemma nlen_pad (sparse : list N) n : nlen sparse <= nlen (nrepeat_to sparse n U32MAX) /\ N.of_nat n <= nlen (nrepeat_to sparse n U32MAX).
Proof. rewrite nlen_nrepeat_to. lia. Qed.

Theorem sp_insert_spec m k v : SpInv m -> k <> U32MAX -> nlen (sp_dense m) + 1 < U32MAX ->
  exists m', sp_insert m k v = Val (sp_abs m k, m') /\ SpInv m' /\ sp_abs m' k = Some v /\ (forall k', k' <> k -> sp_abs m' k' = sp_abs m k').
Proof.
  intros HI Hk Hcap. unfold sp_insert. destruct (N.eqb_spec k U32MAX) as [|_]; [contradiction|].
  set (m1 := mkSp (nrepeat_to (sp_sparse m) (N.to_nat k + 1) U32MAX) (sp_dense m) (sp_indices m)).
  assert (H : SpInv m1 /\ forall k0, sp_abs m1 k0 = sp_abs m k0) by (apply SpInv_sparse_equiv; [intros; now apply nget_nrepeat_to_iff|exact HI]).
  destruct H as [HI1 Ha].
  destruct (nget_lt_some (sp_sparse m1) k) as [idx Ek]; [cbn [m1 sp_sparse]; rewrite nlen_nrepeat_to; lia|].
  cbn [m1 sp_sparse] in Ek. rewrite Ek, <- (Ha k). destruct (N.eqb_spec idx U32MAX) as [->|Ei].
  - rewrite (sp_abs_vacant m1 k Ek). eexists. split; [reflexivity|].
    destruct (sp_push_spec m1 k v HI1 Ek Hk Hcap) as (A & B & C). split; [exact A|]. split; [exact B|]. intros k' Hne. rewrite <- Ha. now apply C.
  - destruct (SpInv_pos m1 k idx HI1 Ek Ei) as [_ Hlt]. destruct (nget_lt_some _ _ Hlt) as [old Ho]. cbn [m1 sp_dense] in Hlt, Ho.
    rewrite Ho, (sp_abs_at m1 k idx HI1 Ek Ei). cbn [m1 sp_dense]. rewrite Ho.
    eexists. split; [reflexivity|].
    destruct (sp_update_spec m1 k idx v HI1 Ek Ei) as (A & B & C). split; [exact A|]. split; [exact B|]. intros k' Hne. rewrite <- Ha. now apply C.
Qed.

(* position idx is given up: the last entry of dense (key mv) takes it, unless idx is the last position itself
   (then mv = k); s' is sparse with k vacated and mv redirected *)
Lemma sp_take_spec m k idx mv s' : SpInv m -> nget (sp_sparse m) k = Some idx -> idx <> U32MAX ->
  nget (sp_indices m) (nlen (sp_indices m) - 1) = Some mv ->
  nget s' k = Some U32MAX -> (mv <> k -> nget s' mv = Some idx) -> (forall k0, k0 <> k -> k0 <> mv -> nget s' k0 = nget (sp_sparse m) k0) ->
  let m' := mkSp s' (swap_remove (sp_dense m) idx) (swap_remove (sp_indices m) idx) in
  SpInv m' /\ sp_abs m' k = None /\ (forall k', k' <> k -> sp_abs m' k' = sp_abs m k').
Proof.
  intros HI Es Ei Emv Hk Hmv Ho m'. pose proof HI as (Hl & Hm & H1 & H2 & _). destruct (SpInv_pos m k idx HI Es Ei) as [Hik Hlt].
  destruct (H1 _ _ Emv) as [Hmm Hms]. pose proof (nlen_swap_remove (sp_dense m) idx Hlt) as Hld.
  assert (Hlti : idx < nlen (sp_indices m)) by lia. pose proof (nlen_swap_remove (sp_indices m) idx Hlti) as Hli.
  assert (Hlen : nlen (swap_remove (sp_dense m) idx) = nlen (swap_remove (sp_indices m) idx) /\ nlen (swap_remove (sp_dense m) idx) < U32MAX) by lia.
  assert (Hlast : nlen (sp_indices m) - 1 <> U32MAX) by lia.
  assert (Hne : mv <> k -> idx <> nlen (sp_indices m) - 1) by (intros A B; rewrite B in Hik; congruence).
  (* every other key sits at a position that is neither idx nor the last one *)
  assert (Hoth : forall k0 i, k0 <> k -> k0 <> mv -> nget (sp_sparse m) k0 = Some i -> i <> U32MAX ->
                   nget (sp_indices m) i = Some k0 /\ i <> idx /\ i <> nlen (sp_indices m) - 1).
  { intros k0 i A B E Hi. pose proof (H2 _ _ E Hi) as X. repeat split; [exact X|intros ->; congruence..]. }
  assert (HI' : SpInv m').
  { apply SpInv_intro; unfold m'; cbn [sp_sparse sp_dense sp_indices]; [exact (proj1 Hlen)|exact (proj2 Hlen)| |].
    + intros j k0 Hj. apply (swap_remove_rows _ _ _ _ Hlti) in Hj. destruct Hj as [(A & B & C)|(-> & B & C)].
      * destruct (H1 j k0 C) as [D E]. split; [exact D|]. rewrite Ho; [exact E| |]; intros ->; congruence.
      * assert (k0 = mv) by congruence. subst k0. split; [exact Hmm|]. apply Hmv. intros ->. congruence.
    + intros k0 i Hs Hi. destruct (N.eq_dec k0 k) as [->|Ek]; [congruence|]. destruct (N.eq_dec k0 mv) as [->|Em].
      * rewrite (Hmv Ek) in Hs. inversion Hs; subst i. rewrite nget_swap_remove_hole; [exact Emv|exact Hlti|exact (Hne Ek)].
      * rewrite Ho in Hs by assumption. destruct (Hoth k0 i Ek Em Hs Hi) as (A & B & C). now rewrite nget_swap_remove_other. }
  split; [exact HI'|split].
  - now apply sp_abs_vacant.
  - intros k' Ek. destruct (N.eq_dec k' mv) as [->|Em].
    + rewrite (sp_abs_at m' mv idx HI' (Hmv Ek) Ei), (sp_abs_at m mv _ HI Hms Hlast). unfold m'; cbn [sp_dense]. rewrite <- Hl.
      apply nget_swap_remove_hole; [exact Hlt|]. rewrite Hl. exact (Hne Ek).
    + apply sp_abs_ext; unfold m'; cbn [sp_sparse sp_dense]; [now apply Ho|]. intros i E Hi.
      destruct (Hoth k' i Ek Em E Hi) as (A & B & C). apply nget_swap_remove_other; [exact Hlt|exact B|]. now rewrite Hl.
Qed.

Theorem sp_remove_spec m k : SpInv m ->
  exists m', sp_remove m k = Val (sp_abs m k, m') /\ SpInv m' /\ sp_abs m' k = None /\ (forall k', k' <> k -> sp_abs m' k' = sp_abs m k').
Proof.
  intros HI. unfold sp_remove. destruct (nget (sp_sparse m) k) as [idx|] eqn:Es.
  2:{ exists m. rewrite (sp_abs_none m k Es). auto. }
  destruct (N.eqb_spec idx U32MAX) as [->|Ei].
  - (* vacant already: nothing changes *)
    rewrite (nset_same _ _ _ Es), (sp_abs_vacant m k Es). eexists. split; [reflexivity|].
    split; [exact HI|]. split; [exact (sp_abs_vacant m k Es)|reflexivity].
  - pose proof HI as (Hl & Hm & H1 & _). destruct (SpInv_pos m k idx HI Es Ei) as [Hik Hlt]. destruct (nget_lt_some _ _ Hlt) as [res Hres].
    assert (Hlti : idx < nlen (sp_indices m)) by lia. pose proof (nlen_swap_remove _ _ Hlti) as Hli.
    rewrite Hres, (sp_abs_at m k idx HI Es Ei), Hres. destruct (N.ltb_spec idx (nlen (sp_indices m))); [cbn [negb]|lia].
    destruct (nget_lt_some (sp_indices m) (nlen (sp_indices m) - 1)) as [mv Emv]; [lia|]. destruct (H1 _ _ Emv) as [_ Hms].
    assert (Hkl : k < nlen (sp_sparse m)) by (eapply nget_some_lt; eauto).
    destruct (N.eq_dec idx (nlen (sp_indices m) - 1)) as [El|El].
    + (* the removed entry was the last one *)
      rewrite (nget_ge_none (swap_remove (sp_indices m) idx)) by lia. eexists. split; [reflexivity|].
      apply (sp_take_spec m k idx mv); try assumption; [now apply nget_nset_eq|intros A; rewrite El in Hik; congruence|].
      intros k0 A _. apply nget_nset_neq. congruence.
    + (* the last entry moves into the hole *)
      rewrite nget_swap_remove_hole, Emv by assumption. assert (Hmk : mv <> k) by (intros ->; congruence).
      rewrite nget_nset_neq, Hms by congruence. eexists. split; [reflexivity|].
      apply (sp_take_spec m k idx mv); try assumption.
      * rewrite nget_nset_neq by exact Hmk. now apply nget_nset_eq.
      * intros _. apply nget_nset_eq. rewrite nlen_nset. eapply nget_some_lt; eauto.
      * intros k0 A B. now rewrite !nget_nset_neq by congruence.
Qed.

Theorem sp_keys_spec m : SpInv m ->
  NoDup (sp_keys m) /\ (forall k, In k (sp_keys m) <-> sp_abs m k <> None) /\
  (forall i k, nget (sp_keys m) i = Some k -> nget (sp_values m) i = sp_abs m k) /\ length (sp_keys m) = length (sp_values m).
Proof.
  intros HI. pose proof HI as (Hl & _ & H1 & _). unfold sp_keys, sp_values. split; [|split; [|split]].
  - apply NoDup_nget. intros i j k A B. destruct (H1 _ _ A) as [_ X]. destruct (H1 _ _ B) as [_ Y]. congruence.
  - intros k. split.
    + intros Hin. apply in_nget in Hin as [i Hi]. rewrite (sp_abs_index m i k HI Hi). apply nget_some_lt in Hi. rewrite <- Hl in Hi.
      destruct (nget_lt_some _ _ Hi) as [v ->]. discriminate.
    + intros Hne. destruct (sp_abs m k) as [v|] eqn:E; [|congruence]. apply (sp_abs_some m k v HI) in E as (i & Hi & _). eapply nget_in; eauto.
  - intros i k Hi. symmetry. now apply sp_abs_index.
  - unfold nlen in Hl. lia.
Qed.

Lemma sp_size_le m m' k : SpInv m -> SpInv m' -> (forall k', k' <> k -> sp_abs m' k' = sp_abs m k') -> nlen (sp_dense m') <= nlen (sp_dense m) + 1.
Proof.
  intros HI HI' Hs. destruct (sp_keys_spec m HI) as (_ & Hk & _ & Hl). destruct (sp_keys_spec m' HI') as (Hnd & Hk' & _ & Hl').
  assert (Hle : (length (sp_keys m') <= length (k :: sp_keys m))%nat).
  { apply NoDup_incl_length; [exact Hnd|]. intros k' Hin. destruct (N.eq_dec k k') as [E|E]; [now left|right]. apply Hk. rewrite <- Hs by congruence. now apply Hk'. }
  unfold nlen, sp_values in *. cbn [length] in Hle. lia.
Qed.

Lemma SpInv_empty : SpInv sp_empty.
Proof. apply SpInv_intro; [reflexivity|reflexivity| |]; intros a b H; discriminate H. Qed.

Inductive sp_op := SpIns (k : N) (v : V) | SpRem (k : N).
Definition sp_step (m : spm) (o : sp_op) : out spm :=
  match o with
  | SpIns k v => match sp_insert m k v with Val (_, m') => Val m' | Panic => Panic | UB l => UB l end
  | SpRem k => match sp_remove m k with Val (_, m') => Val m' | Panic => Panic | UB l => UB l end
  end.
Fixpoint sp_run (m : spm) (ops : list sp_op) : out spm :=
  match ops with
  | [] => Val m
  | o :: t => match sp_step m o with Val m' => sp_run m' t | Panic => Panic | UB l => UB l end
  end.
(* the specification: a function key -> option value *)
Definition spec_step (f : N -> option V) (o : sp_op) : N -> option V :=
  match o with
  | SpIns k v => fun k' => if k' =? k then Some v else f k'
  | SpRem k => fun k' => if k' =? k then None else f k'
  end.
Definition op_ok (o : sp_op) : Prop := match o with SpIns k _ => k <> U32MAX | SpRem _ => True end.

Theorem sp_run_refines : forall ops m f, SpInv m -> (forall k, sp_abs m k = f k) -> Forall op_ok ops ->
  nlen (sp_dense m) + N.of_nat (length ops) < U32MAX ->
  exists m', sp_run m ops = Val m' /\ SpInv m' /\ (forall k, sp_abs m' k = fold_left spec_step ops f k).
Proof.
  induction ops as [|o t IH]; intros m f HI Hf Hok Hcap; cbn [sp_run fold_left]; [eauto|].
  inversion Hok as [|o' t' Ho Ht]; subst. cbn [length] in Hcap.
  (* both operations: the step succeeds, and the new map is spec_step of the old one *)
  destruct o as [k v|k]; cbn [sp_step spec_step];
    [destruct (sp_insert_spec m k v HI Ho ltac:(lia)) as (m' & E & HI' & A & B)|destruct (sp_remove_spec m k HI) as (m' & E & HI' & A & B)];
    rewrite E; pose proof (sp_size_le m m' k HI HI' B) as Hd; (apply IH; [exact HI'| |exact Ht|lia]); intros k';
    (destruct (N.eqb_spec k' k) as [->|Ek]; [exact A|]); rewrite <- Hf; now apply B.
Qed.

(* from the empty map: every sequence of fewer than 2^32-1 operations with keys other than K::MAX runs without
   an unchecked failure or panic and computes the finite map of the specification *)
Corollary sp_from_empty ops : Forall op_ok ops -> N.of_nat (length ops) < U32MAX ->
  exists m', sp_run sp_empty ops = Val m' /\ SpInv m' /\ (forall k, sp_abs m' k = fold_left spec_step ops (fun _ => None) k).
Proof. intros Hok Hcap. apply sp_run_refines; [apply SpInv_empty|reflexivity|exact Hok|exact Hcap]. Qed.

Lemma strip_max_spec r : exists n, r = repeat U32MAX n ++ strip_max r.
Proof. exact (nstrip_spec U32MAX r). Qed.
Lemma shrink_split (l : list N) : exists pad, l = rev (strip_max (rev l)) ++ pad /\ forall y, In y pad -> y = U32MAX.
Proof. exact (nstrip_split U32MAX l). Qed.
Theorem sp_shrink_spec m : SpInv m -> SpInv (sp_shrink m) /\ (forall k, sp_abs (sp_shrink m) k = sp_abs m k) /\
  sp_keys (sp_shrink m) = sp_keys m /\ sp_values (sp_shrink m) = sp_values m.
Proof.
  intros HI. destruct (nstrip_split U32MAX (sp_sparse m)) as (pad & Hs & Hpad). change (nstrip U32MAX) with strip_max in Hs. set (l' := rev (strip_max (rev (sp_sparse m)))) in *.
  destruct (SpInv_sparse_equiv m l') as [A B]; [|exact HI|split; [exact A|split; [exact B|split; reflexivity]]].
  intros k i Hi. rewrite Hs. split; [apply nget_app_some|]. intros H.
  destruct (N.lt_ge_cases k (nlen l')) as [L|L]; [now rewrite nget_app_l in H|]. rewrite nget_app_r in H by exact L. apply nget_in, Hpad in H. contradiction.
Qed.
End SparseMap.
Arguments spm : clear implicits.
Arguments Val {A}. Arguments Panic {A}. Arguments UB {A}.

Arguments sp_empty {V}.
(* non-vacuity: a concrete non-trivial state satisfies the invariant (three inserts, one removal of a middle entry) *)
Example sp_example : match sp_run (@sp_empty N) [SpIns 12 1; SpIns 5 2; SpIns 42 3; SpRem 12] with
                     | Val m => sp_keys m = [42; 5] /\ sp_values m = [3; 2] /\ sp_abs m 5 = Some 2 /\ sp_abs m 12 = None
                     | _ => False end.
Proof. vm_compute. repeat split. Qed.

(* composite statements used by Props/C10.v and Props/C01.v *)
Lemma sp_keys_values_get {V} (m : spm V) : SpInv m ->
    (NoDup (sp_keys m) /\ (forall k, In k (sp_keys m) <-> sp_abs m k <> None) /\
     (forall i k, nget (sp_keys m) i = Some k -> nget (sp_values m) i = sp_abs m k) /\ length (sp_keys m) = length (sp_values m)) /\
    (forall k, sp_get m k = Val (sp_abs m k)).
Proof. intros H. split; [exact (sp_keys_spec m H)|intros k; exact (sp_get_spec m k H)]. Qed.

Lemma sp_never_ub {V} (m : spm V) : SpInv m ->
    (forall k, sp_get m k = Val (sp_abs m k)) /\
    (forall k v, k <> U32MAX -> nlen (sp_dense m) + 1 < U32MAX -> exists m', sp_insert m k v = Val (sp_abs m k, m') /\ SpInv m') /\
    (forall k, exists m', sp_remove m k = Val (sp_abs m k, m') /\ SpInv m') /\
    SpInv (sp_shrink m).
Proof.
  intros H. split; [intros k; exact (sp_get_spec m k H)|]. split; [|split].
  - intros k v Hk Hc. destruct (sp_insert_spec m k v H Hk Hc) as (m' & A & B & _). eauto.
  - intros k. destruct (sp_remove_spec m k H) as (m' & A & B & _). eauto.
  - exact (proj1 (sp_shrink_spec m H)).
Qed.
