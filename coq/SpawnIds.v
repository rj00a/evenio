(* SpawnIds.v : every id handed out by Sender::spawn / World::spawn is created (C03).
   Slot-map level, with no capacity hypothesis: when NextKeyIter predicted k first (and the prediction of the
   following ids succeeded), insert_with succeeds, returns exactly k, and the remaining predictions are the same
   on the map after the insertion (predict_insert).
   World level: OW k w : the entity map satisfies its invariant, the cursor invariant holds with the promised list
   ks, and k is either still promised (In k ks) or was created (it is live, or it is dead for good).
   OW k is established by the reservation that returns k and is kept by every step of a propagation, for every
   handler behaviour, from any state; where nothing is reserved (after a Spawn or Despawn effect, at the end
   of a propagation that ends quiet) it says that k was created. *)
From Coq Require Import List NArith Bool Lia Sorted.
Import ListNotations.
Require Import EV.Base EV.ListN EV.Access EV.Query EV.SlotMap EV.Reserve EV.HList EV.Loop EV.World EV.StorageSpec EV.SlotMapGet
  EV.AccessProofs EV.ArchProofs EV.QueryProofs EV.WorldFrame EV.Layer EV.Store EV.Graph EV.Effects EV.Reach EV.RemoveComp EV.Member EV.Listen
  EV.ReserveW EV.Order EV.Fetch EV.NoUB EV.Sender EV.Users EV.DeadIds EV.Ledger EV.EvLedger EV.Quiet EV.DeadEnts.
Open Scope N_scope.

Section P.
Context {V : Type}.
Notation smap := (smap V).


Lemma predict_ext (m m' : smap) i0 : length (slots m') = length (slots m) ->
  (forall j, j <> i0 -> sget (slots m') j = sget (slots m) j) -> N.of_nat (length (slots m)) <= U32MAX ->
  forall n h c, chain (slots m) h c -> ~ In i0 c -> predict n (start_of _ (slots m) h) m' = predict n (start_of _ (slots m) h) m.
Proof. exact (predict_off_chain m m' i0). Qed.


Theorem predict_insert (f : key -> V) (m : smap) k ks i n : SmInv m ->
  predict (S n) (next_key_iter m) m = Some (k :: ks, i) ->
  exists m', insert_with f m = Some (k, m') /\ predict n (next_key_iter m') m' = Some (ks, i).
Proof. apply insert_predicted. Qed.
End P.

(* n steps: the predicted keys are the inserted keys, with no capacity hypothesis (Reserve.nki_predicts has one) *)
Lemma predict_inserts {V} (f : key -> V) n : forall (m : smap V) ks i, SmInv m -> predict n (next_key_iter m) m = Some (ks, i) ->
  exists m', inserts n f m = Some (ks, m') /\ SmInv m' /\ next_key_iter m' = i.
Proof. apply inserts_predicted. Qed.

(* created: the id is live, or dead for good *)
Definition created (m : smap eloc) (k : key) : Prop := sm_get k m <> None \/ Dead m k.

Lemma created_insert f m k0 m' k : SmInv m -> insert_with f m = Some (k0, m') -> created m k -> created m' k.
Proof.
  intros Hi E [L|D]; [|right; eapply dead_insert; eauto].
  left. destruct (key_eq_dec k k0) as [->|Hne]; [rewrite (insert_get_new _ _ _ _ Hi E); discriminate|].
  now rewrite (insert_get_other _ _ _ _ _ Hi E Hne).
Qed.
Lemma created_new f m k0 m' : SmInv m -> insert_with f m = Some (k0, m') -> created m' k0.
Proof. intros Hi E. left. rewrite (insert_get_new _ _ _ _ Hi E). discriminate. Qed.
Lemma created_remove m k1 v m' k : SmInv m -> sm_remove k1 m = Some (v, m') -> created m k -> created m' k.
Proof.
  intros Hi E [L|D]; [|right; eapply dead_remove; eauto].
  destruct (key_eq_dec k k1) as [->|Hne]; [right; eapply remove_dead; eauto|left; now rewrite (remove_get_other _ _ _ _ _ Hi E Hne)].
Qed.
Lemma live_shape (m m' : smap eloc) k : shape m' = shape m -> sm_get k m <> None -> sm_get k m' <> None.
Proof.
  intros Hs L. pose proof (shape_sget m m' (fst k) Hs) as X. unfold sm_get in *.
  destruct (sget (slots m') (fst k)) as [s'|], (sget (slots m) (fst k)) as [s|]; try contradiction.
  destruct X as (Eg & _ & Ev). rewrite Eg. destruct (gen s =? snd k); [|exact L]. intros Z. apply L. now apply Ev.
Qed.
Lemma created_shape m m' k : shape m' = shape m -> created m k -> created m' k.
Proof.
  intros Hs [L|D]; [left; eapply live_shape; eauto|right; eapply Dead_gens; [|exact D]; now apply (gens_sview (fun _ : eloc => tt))].
Qed.

(* cr: created, or the null id (events that carry no id carry KEY_NULL; OW KEY_NULL is the plain invariant) *)
Definition cr (m : smap eloc) (k : key) : Prop := k = KEY_NULL \/ created m k.
Lemma cr_insert f m k0 m' k : SmInv m -> insert_with f m = Some (k0, m') -> cr m k -> cr m' k.
Proof. intros Hi E [N0|C]; [now left|right; eapply created_insert; eauto]. Qed.
Lemma cr_new f m k0 m' : SmInv m -> insert_with f m = Some (k0, m') -> cr m' k0.
Proof. intros Hi E. right. eapply created_new; eauto. Qed.
Lemma cr_remove m k1 v m' k : SmInv m -> sm_remove k1 m = Some (v, m') -> cr m k -> cr m' k.
Proof. intros Hi E [N0|C]; [now left|right; eapply created_remove; eauto]. Qed.
Lemma cr_shape m m' k : shape m' = shape m -> cr m k -> cr m' k.
Proof. intros Hs [N0|C]; [now left|right; eapply created_shape; eauto]. Qed.

Section OW.
Variable k : key.
Definition CE (w : world) : Prop := SmInv (w_ents w) /\ cr (w_ents w) k.
Definition OW (w : world) : Prop :=
  SmInv (w_ents w) /\ exists ks, reserved_ids w ks /\ (In k ks \/ cr (w_ents w) k).

Lemma CE_shape w w' : shape (w_ents w') = shape (w_ents w) -> CE w -> CE w'.
Proof. intros Hs [A B]. split; [eapply sview_inv; eauto|eapply cr_shape; eauto]. Qed.
Lemma CE_eo w w' : eo w' = eo w -> CE w -> CE w'.
Proof. intros H. apply CE_shape. exact (proj1 (eo_parts _ _ H)). Qed.
Lemma CE_remove w k1 v m' : CE w -> sm_remove k1 (w_ents w) = Some (v, m') -> CE (set_ents w m').
Proof. intros [A B] E. split; cbn [w_ents set_ents]; [eapply remove_inv; eauto|eapply cr_remove; eauto]. Qed.

Lemma OW_eo w w' : eo w' = eo w -> OW w -> OW w'.
Proof.
  intros H [A (ks & R & C)]. destruct (eo_parts _ _ H) as (Hs & Hc & Hr). split; [eapply sview_inv; eauto|].
  exists ks. split; [exact (ReserveInv_shape w w' Hs Hc Hr ks R)|]. destruct C as [C|C]; [now left|right; eapply cr_shape; eauto].
Qed.
Lemma OW_ro w w' : ro w' = ro w -> OW w -> OW w'.
Proof. intros H. apply OW_eo. now apply ro_eo. Qed.

(* nothing reserved: the id was created *)
Lemma OW_quiet w : OW w -> w_rcnt w = 0 -> cr (w_ents w) k.
Proof.
  intros [_ (ks & R & C)] Hz. unfold reserved_ids in R. rewrite Hz in R. cbn [N.to_nat predict] in R. inversion R; subst ks.
  destruct C as [[]|C]; exact C.
Qed.
Lemma CE_OW w : CE w -> Quiet w -> OW w.
Proof. intros [A B] Q. split; [exact A|]. exists []. split; [now apply Quiet_ReserveInv|now right]. Qed.

Lemma reserve_OW w : OW w -> OW (res_world (reserve w)).
Proof.
  intros [A (ks & R & C)]. pose proof (reserve_ReserveInv w ks R) as X. pose proof (reserve_ents w) as He.
  destruct (reserve w) as [k' w'|f w']; cbn [res_world] in *; [|subst; split; [exact A|exists ks; auto]].
  split; [now rewrite He|]. exists (ks ++ [k']). split; [exact X|]. rewrite He. destruct C as [C|C]; [left; apply in_or_app; now left|now right].
Qed.

(* materialisation: never fails under the cursor invariant, creates every promised id, ends quiet *)
Lemma spawn_all_n_CE n w ks i : SmInv (w_ents w) -> predict n (next_key_iter (w_ents w)) (w_ents w) = Some (ks, i) ->
  In k ks \/ cr (w_ents w) k ->
  exists w', spawn_all_n n w = ROk tt w' /\ CE w' /\ w_rcnt w' = w_rcnt w.
Proof.
  intros Hi Hp C.
  destruct (spawn_all_n_promised (fun ks' w' => (In k ks' \/ cr (w_ents w') k) /\ w_rcnt w' = w_rcnt w) ) with (2 := Hi) (3 := Hp)
    as (w' & E & A & [[[]|B] Hr]); [|now split|now exists w'].
  intros w1 k1 ks1 ents' H1 Ei [C1 <-]. split; [|exact (r_arch_spawn w_rcnt ltac:(fr) ltac:(fr) w1 k1)]. cbn [w_ents set_ents].
  destruct C1 as [[<-|C1]|C1]; [right; eapply cr_new; eauto|now left|right; eapply cr_insert; eauto].
Qed.
Lemma spawn_all_OW w : OW w -> exists w', spawn_all w = ROk tt w' /\ OW w' /\ Quiet w'.
Proof.
  intros [A (ks & R & C)]. unfold reserved_ids in R. destruct (spawn_all_n_CE _ w ks (w_rcur w) A R C) as (w1 & Es & HC & Hr).
  unfold spawn_all. rewrite Es. cbn [rbind]. eexists. split; [reflexivity|].
  assert (Q : Quiet (set_res w1 (next_key_iter (w_ents w1)) 0)) by (split; reflexivity).
  split; [|exact Q]. apply CE_OW; [|exact Q]. eapply CE_shape; [|exact HC]. reflexivity.
Qed.

Lemma remove_entity_fail_ub w loc f w' : remove_entity w loc = RFail f w' -> ubf (Some f).
Proof. destruct loc as [ai row]. destruct (remove_entity_spec w ai row); intros [= <- _]; exact I. Qed.

Lemma remove_entity_CE w loc : CE w -> CE (res_world (remove_entity w loc)).
Proof. intros HP. destruct loc as [ai row]. apply remove_entity_eo; [exact CE_eo| |exact HP]. intros a e vals v m' _ _. now apply CE_remove. Qed.

Lemma builtin_effect_OW kind ev loc w : OW w ->
  match builtin_effect kind ev loc w with ROk _ w3 => OW w3 | RFail f w3 => ~ ubf (Some f) -> OW w3 end.
Proof.
  intros HP. pose proof (eo_builtin_effect kind ev loc w) as He.
  destruct kind as [|c|c| |]; try (revert He; destruct (builtin_effect _ ev loc w); cbn [res_world]; intros He; [|intros _]; exact (OW_eo w _ He HP)); cbn [builtin_effect].
  - destruct (spawn_all_OW w HP) as (w' & -> & H & _). exact H.
  - destruct (spawn_all_OW w HP) as (w2 & -> & H2 & Q2). cbn [rbind].
    assert (C2 : CE w2) by (split; [exact (proj1 H2)|exact (OW_quiet w2 H2 (proj1 Q2))]).
    pose proof (remove_entity_CE w2 loc C2) as C3. pose proof (proj2 (remove_entity_el w2 loc)) as Hc.
    destruct (remove_entity w2 loc) as [[] w3|f w3] eqn:Er; cbn [rbind res_world] in *.
    + apply CE_OW; [eapply CE_shape; [|exact C3]; reflexivity|]. split; [cbn; rewrite Hc; exact (proj1 Q2)|reflexivity].
    + intros Hn. exfalso. apply Hn. eapply remove_entity_fail_ub; eauto.
Qed.
End OW.

Lemma OW_swalks k : swalks (OW k).
Proof. exact (ro_swalks _ (OW_ro k) (reserve_OW k)). Qed.

Lemma run_actions_OW k acts : forall ps t fresh sent w, OW k w -> OW k (snd (fst (run_actions acts ps t fresh sent w))).
Proof. intros ps t fresh sent w. apply sw_run_actions, OW_swalks. Qed.

Section OWStep.
Variable beh : hinfo -> logent -> N -> script.
Variable k : key.

Lemma run_handler_OW w h it tag loc : OW k w -> OW k (snd (run_handler beh w h it tag loc)).
Proof. apply sw_run_handler, OW_swalks. Qed.

Lemma run_handlers_OW hl : forall w it tag loc sent, OW k w -> OW k (fst (fst (fst (fst (run_handlers beh hl w it tag loc sent))))).
Proof. intros w it tag loc sent. apply sw_run_handlers, OW_swalks. Qed.

Lemma deliver_one_OW it w : OW k w -> ~ ubf (snd (deliver_one beh it w)) -> OW k (snd (fst (deliver_one beh it w))).
Proof.
  apply (sw_deliver_one beh _ (OW_swalks k) (fun w' fl => ~ ubf fl -> OW k w')); [auto|].
  intros k0 info ev loc w1 _ _ _ H1 _. pose proof (builtin_effect_OW k (e_kind info) ev loc w1 H1) as HB.
  destruct (builtin_effect (e_kind info) ev loc w1); cbn [fail_of snd res_world]; [intros _; exact HB|exact HB].
Qed.

Lemma unwind_OW q w : OW k w -> OW k (res_world (spawn_all (unwind_queue q w))).
Proof. intros H. destruct (spawn_all_OW k _ (OW_eo k w _ (eo_unwind_queue q w) H)) as (w3 & -> & H3 & _). exact H3. Qed.

Theorem flush_loop_OW : forall n q (st : wst) acc tr st' oc,
  Loop.flush wst qitem (run_w beh) unwind_w n q st acc = Some (tr, st', oc) ->
  OW k (fst st) -> (oc = Aborted -> ~ ubf (snd st')) -> OW k (fst st').
Proof.
  intros n q st acc tr st' oc H HR Hnu.
  assert (HF : match oc with Finished => OW k (fst st') | Aborted => ~ ubf (snd st') -> OW k (fst st') end);
    [|destruct oc; [exact HF|exact (HF (Hnu eq_refl))]].
  refine (flush_w_exit beh (fun w _ _ => OW k w) (fun w fl _ => ~ ubf fl -> OW k w) _ n q st acc tr st' oc H HR).
  intros rest e w tr0 HI. pose proof (deliver_one_OW e w HI) as HD.
  destruct (deliver_one beh e w) as [[sent w2] [[kf|u]|]]; cbn [fst snd] in HD; [intros Hn; apply unwind_OW|exact HD|]; apply HD; cbn; tauto.
Qed.

(* a whole propagation keeps OW k; the out-of-fuel outcome returns the world unchanged *)
Theorem flush_OW q w : OW k w -> ~ ubf (res_fail (flush beh q w)) -> OW k (res_world (flush beh q w)).
Proof.
  intros HR. apply (flush_cases beh q w (fun r => ~ ubf (res_fail r) -> OW k (res_world r))); cbn [res_world res_fail].
  - intros _. exact HR.
  - intros tr w1 fl E _. apply (OW_ro k w1); [reflexivity|]. apply (flush_loop_OW _ _ _ _ _ _ _ E HR). discriminate.
  - intros tr w1 f E Hn. apply (flush_loop_OW _ _ _ _ _ _ _ E HR). intros _. exact Hn.
Qed.
End OWStep.

(* Sender::spawn / World::spawn: the id returned is owed from then on *)
Theorem reserved_id_is_owed w k w' : SmInv (w_ents w) -> ReserveInv w -> reserve w = ROk k w' -> OW k w'.
Proof.
  intros A [ks R] E. pose proof (reserve_ReserveInv w ks R) as X. pose proof (reserve_ents w) as He. rewrite E in X, He. cbn [res_world] in He.
  split; [now rewrite He|]. exists (ks ++ [k]). split; [exact X|]. left. apply in_or_app. right. now left.
Qed.

(* ... through the whole propagation, whatever the handlers do; where the propagation ends with nothing reserved
   (Quiet.flush_Q: every propagation started from a quiet world or with a Spawn event queued), the id was created:
   it is the id of a live entity, or of one that was despawned since and is dead for good *)
Theorem owed_id_is_created beh k q w : k <> KEY_NULL -> OW k w -> ~ ubf (res_fail (flush beh q w)) -> w_rcnt (res_world (flush beh q w)) = 0 ->
  let w' := res_world (flush beh q w) in sm_get k (w_ents w') <> None \/ Dead (w_ents w') k.
Proof. intros Hk H Hn Hz. destruct (OW_quiet k _ (flush_OW beh k q w H Hn) Hz) as [N0|C]; [contradiction|exact C]. Qed.

(* the Spawn effect itself: it cannot fail under the cursor invariant, creates every owed id, leaves nothing reserved *)
Theorem spawn_effect_creates_owed k ev loc w : k <> KEY_NULL -> OW k w ->
  exists w', builtin_effect KSpawn ev loc w = ROk tt w' /\ Quiet w' /\ (sm_get k (w_ents w') <> None \/ Dead (w_ents w') k).
Proof.
  intros Hk H. cbn [builtin_effect]. destruct (spawn_all_OW k w H) as (w' & E & H' & Q). exists w'. split; [exact E|]. split; [exact Q|].
  destruct (OW_quiet k w' H' (proj1 Q)) as [N0|C]; [contradiction|exact C].
Qed.

(* RO: the plain invariant (entity map well formed, cursor invariant); it is OW for the null id.  Every event a
   handler body queues carries the null id or an owed id (only Sender::spawn puts an id into an event, and that id
   is the one its reservation returned); deliveries and the stack machine keep this for the whole queue and for
   everything already delivered. *)
Definition RO (w : world) : Prop := SmInv (w_ents w) /\ ReserveInv w.
Lemma RO_ro w w' : ro w' = ro w -> RO w -> RO w'.
Proof. intros H [A B]. split; [now rewrite (ro_ents _ _ H)|eapply RI_ro; eauto]. Qed.
Lemma RO_reserve w : RO w -> RO (res_world (reserve w)).
Proof. intros [A B]. split; [now rewrite reserve_ents|now apply RI_reserve]. Qed.
Definition nullid (x : qitem) : Prop := ev_id (qi_ev x) = KEY_NULL.

(* the plain invariant, and every event pushed beyond [sent0] carries the null id or an owed one *)
Definition owedP (sent0 : list qitem) (w : world) (s : list qitem) (_ : option fail) : Prop :=
  RO w /\ forall x, In x s -> In x sent0 \/ nullid x \/ OW (ev_id (qi_ev x)) w.
Lemma owedP_step sent0 w w' s fl fl' : RO w' -> (forall k, OW k w -> OW k w') -> owedP sent0 w s fl -> owedP sent0 w' s fl'.
Proof. intros HR HO [_ B]. split; [exact HR|]. intros x Hx. destruct (B x Hx) as [X|[X|X]]; auto. Qed.
Lemma owedP_ro sent0 w w' s fl fl' : ro w' = ro w -> owedP sent0 w s fl -> owedP sent0 w' s fl'.
Proof. intros H HP. apply (owedP_step sent0 w w' s fl); [exact (RO_ro _ _ H (proj1 HP))|intros k; now apply OW_ro|exact HP]. Qed.
Lemma owedP_walks sent0 : walks (owedP sent0) (fun _ _ _ => True) (fun _ => True).
Proof.
  split; [split|..]; try (intros; eapply owedP_ro; [|eassumption]; first [reflexivity|apply ro_write_arch]).
  - intros w s tg tag idx target ev _ Hn [A B]. split; [exact A|]. intros y Hy. apply in_app_or in Hy as [Hy|[<-|[]]]; auto.
  - intros w s id w1 idx _ Er [A B]. pose proof (RO_reserve w A) as A2. rewrite Er in A2. split; [exact A2|].
    intros y Hy. apply in_app_or in Hy as [Hy|[<-|[]]]; [|right; right; exact (reserved_id_is_owed w id w1 (proj1 A) (proj2 A) Er)].
    destruct (B y Hy) as [X|[X|X]]; auto. right. right. pose proof (reserve_OW _ w X) as X2. now rewrite Er in X2.
  - intros w s f H. split; [intros; eapply owedP_ro; [apply ro_ev_drop|exact H]|]. apply (owedP_step sent0 w _ s (Some f)); [apply RO_reserve, H|intros k; apply reserve_OW|exact H].
  - exact (fun _ => I).
Qed.
Definition owed_all (l : list qitem) (w : world) : Prop := forall y, In y l -> nullid y \/ OW (ev_id (qi_ev y)) w.
Lemma owedP_all w s fl : owedP [] w s fl <-> RO w /\ owed_all s w.
Proof. split; intros [A B]; (split; [exact A|]); intros y Hy; [destruct (B y Hy) as [[]|X]; exact X|right; now apply B]. Qed.

Lemma run_actions_spawn_owed acts : forall ps t fresh sent w, RO w ->
  forall x, In x (fst (fst (run_actions acts ps t fresh sent w))) ->
    In x sent \/ nullid x \/ OW (ev_id (qi_ev x)) (snd (fst (run_actions acts ps t fresh sent w))).
Proof.
  intros ps t fresh sent w HR. apply (body_rule _ _ _ (owedP_walks sent) ps (fun _ _ _ _ => I) acts t fresh [] sent w). split; auto.
Qed.

(* the handler, with its views and its log entry around the body *)
Theorem run_handler_spawn_owed beh w h it tag loc : RO w ->
  forall x, In x (hr_sent (fst (run_handler beh w h it tag loc))) ->
    nullid x \/ OW (ev_id (qi_ev x)) (snd (run_handler beh w h it tag loc)).
Proof.
  intros HR. apply owedP_all with (fl := None), (handler_rule _ _ _ (owedP_walks []) beh w h it tag loc [] (fun _ _ _ _ => I) (fun _ _ => I)).
  split; [exact HR|intros y []].
Qed.

Section Deliver.
Variable beh : hinfo -> logent -> N -> script.

Lemma RO_run_handler w h it tag loc : RO w -> RO (snd (run_handler beh w h it tag loc)).
Proof. apply (sw_run_handler RO (ro_swalks _ RO_ro RO_reserve)). Qed.

Lemma RO_OW_null w : RO w <-> OW KEY_NULL w.
Proof.
  split.
  - intros [A [ks R]]. split; [exact A|]. exists ks. split; [exact R|]. right. now left.
  - intros [A (ks & R & _)]. split; [exact A|now exists ks].
Qed.

Lemma owed_all_ro l w w' : ro w' = ro w -> owed_all l w -> owed_all l w'.
Proof. intros H Ho y Hy. destruct (Ho y Hy) as [N0|O]; [now left|right; eapply OW_ro; eauto]. Qed.

Lemma run_handlers_spawn_owed hl : forall w it tag loc sent, RO w -> owed_all sent w ->
  let r := run_handlers beh hl w it tag loc sent in
  RO (fst (fst (fst (fst r)))) /\ owed_all (snd (fst (fst r))) (fst (fst (fst (fst r)))).
Proof.
  intros w it tag loc sent HR Ho. cbn zeta.
  pose proof (handlers_rule _ _ _ (owedP_walks []) beh hl w it tag loc sent (ready_any _ _ hl loc w (fun _ _ _ => I) (fun _ => I)) (proj2 (owedP_all w sent None) (conj HR Ho))) as H.
  destruct (run_handlers beh hl w it tag loc sent) as [[[[w1 ev] sent'] taken] fl]. cbn [fst snd]. destruct H as (w' & H & _ & ->).
  apply (owedP_all _ _ fl). destruct taken; [eapply owedP_ro; [apply ro_ev_drop|]|]; exact H.
Qed.

(* one delivery: every event it queued that carries an id carries an owed one, in the world after the delivery
   (handlers, then the built-in effect or the release of the event) *)
Theorem deliver_one_spawn_owed it w : RO w -> ~ ubf (snd (deliver_one beh it w)) ->
  owed_all (fst (fst (deliver_one beh it w))) (snd (fst (deliver_one beh it w))).
Proof.
  intros HR. apply (deliver_one_rule beh _ _ _ (owedP_walks [])) with (R := fun r => ~ ubf (snd r) -> owed_all (fst (fst r)) (snd (fst r)));
    [intros; apply ready_any; repeat intro; exact I|split; [exact HR|intros y []]|intros s _ y []| |]; cbn [fst snd].
  - intros k info w1 ev s fl _ H _ _ _ _ _. eapply (owedP_all _ _ fl), owedP_ro; [apply ro_ev_drop|exact H].
  - intros k info loc w1 ev s _ _ H _ _ _ _ Hn y Hy. destruct (proj2 (proj1 (owedP_all _ _ _) H) y Hy) as [N0|O]; [now left|right].
    pose proof (builtin_effect_OW _ (e_kind info) ev loc w1 O) as HB. destruct (builtin_effect (e_kind info) ev loc w1); cbn [fail_of snd res_world] in *; auto.
Qed.
End Deliver.

Section Loop.
Variable beh : hinfo -> logent -> N -> script.

Lemma owed_all_app l1 l2 w : owed_all (l1 ++ l2) w <-> owed_all l1 w /\ owed_all l2 w.
Proof.
  split; [intros H; split; intros y Hy; apply H, in_or_app; auto|intros [H1 H2] y Hy; apply in_app_or in Hy as [Hy|Hy]; auto].
Qed.
Lemma owed_all_keep l w w' : (forall k, OW k w -> OW k w') -> owed_all l w -> owed_all l w'.
Proof. intros Hk Ho y Hy. destruct (Ho y Hy) as [N0|O]; auto. Qed.
Lemma RO_keep w w' : (forall k, OW k w -> OW k w') -> RO w -> RO w'.
Proof. intros Hk R. apply RO_OW_null, Hk, RO_OW_null, R. Qed.

(* the stack machine: the world satisfies the plain invariant and every queued event that carries an id carries an
   owed one - at every step, for every handler behaviour; FUB outcomes excluded as everywhere *)
Theorem flush_loop_spawn_owed : forall n q (st : wst) acc tr st' oc,
  Loop.flush wst qitem (run_w beh) unwind_w n q st acc = Some (tr, st', oc) ->
  RO (fst st) -> owed_all q (fst st) -> owed_all acc (fst st) -> (oc = Aborted -> ~ ubf (snd st')) ->
  RO (fst st') /\ owed_all tr (fst st').
Proof.
  intros n q st acc tr st' oc H HR Ho Ha Hnu.
  assert (HF : match oc with Finished => RO (fst st') /\ owed_all [] (fst st') /\ owed_all tr (fst st')
                           | Aborted => ~ ubf (snd st') -> RO (fst st') /\ owed_all tr (fst st') end);
    [|destruct oc; [destruct HF as (A & _ & B); now split|exact (HF (Hnu eq_refl))]].
  refine (flush_w_exit beh (fun w q0 tr0 => RO w /\ owed_all q0 w /\ owed_all tr0 w) (fun w fl tr0 => ~ ubf fl -> RO w /\ owed_all tr0 w) _ n q st acc tr st' oc H
            (conj HR (conj Ho Ha))).
  intros rest e w tr0 (R & Q & T). apply owed_all_app in Q as [Q Qe].
  pose proof (fun k => deliver_one_OW beh k e w) as HD. pose proof (deliver_one_spawn_owed beh e w R) as HS.
  assert (T' : owed_all (tr0 ++ [e]) w) by (apply owed_all_app; now split).
  destruct (deliver_one beh e w) as [[sent w2] [[kf|u]|]]; cbn [fst snd] in *; [intros _|intros []; exact I|].
  - assert (Hk : forall k, OW k w -> OW k (res_world (spawn_all (unwind_queue (rest ++ sent) w2)))) by (intros k O; apply unwind_OW, HD; [exact O|tauto]).
    split; [exact (RO_keep _ _ Hk R)|exact (owed_all_keep _ _ _ Hk T')].
  - assert (Hk : forall k, OW k w -> OW k w2) by (intros k O; apply HD; [exact O|tauto]).
    split; [exact (RO_keep _ _ Hk R)|]. split; [|exact (owed_all_keep _ _ _ Hk T')].
    apply owed_all_app. split; [exact (owed_all_keep _ _ _ Hk Q)|]. intros y Hy. apply HS; [tauto|now apply in_rev].
Qed.

(* a whole propagation: every event that was delivered during it and carries an id - every Spawn event of a
   Sender::spawn or World::spawn - carries an id that was created by the time the propagation is over with nothing
   reserved: the id of a live entity, or of one despawned since (dead for good) *)
Theorem delivered_spawn_ids_are_created : forall q w tr w' fl oc,
  Loop.flush wst qitem (run_w beh) unwind_w FUEL q (w, None) [] = Some (tr, (w', fl), oc) ->
  RO w -> owed_all q w -> (oc = Aborted -> ~ ubf fl) -> w_rcnt w' = 0 ->
  forall x, In x tr -> ev_id (qi_ev x) <> KEY_NULL ->
    sm_get (ev_id (qi_ev x)) (w_ents w') <> None \/ Dead (w_ents w') (ev_id (qi_ev x)).
Proof.
  intros q w tr w' fl oc H HR Ho Hnu Hz x Hx Hk.
  destruct (flush_loop_spawn_owed _ _ _ _ _ _ _ H HR Ho ltac:(intros y []) Hnu) as [_ B]. cbn [fst] in B.
  destruct (B x Hx) as [N0|O]; [contradiction|]. destruct (OW_quiet _ _ O Hz) as [N0|C]; [contradiction|exact C].
Qed.
End Loop.

(* the plain invariant through a whole propagation, with no capacity hypothesis and no exclusion of the delivery budget
   (Quiet.flush_RI has both, because it cannot rule out a materialisation that fails half-way) *)
Theorem flush_RO beh q w : RO w -> ~ ubf (res_fail (flush beh q w)) -> RO (res_world (flush beh q w)).
Proof. intros H Hn. apply RO_OW_null. apply flush_OW; [now apply RO_OW_null|exact Hn]. Qed.

(* under the plain invariant the materialisation cannot fail, and it ends quiet *)
Theorem spawn_all_cannot_fail w : RO w -> exists w', spawn_all w = ROk tt w' /\ RO w' /\ Quiet w'.
Proof. intros H. destruct (spawn_all_OW KEY_NULL w (proj1 (RO_OW_null w) H)) as (w' & E & H' & Q). exists w'. split; [exact E|]. split; [now apply RO_OW_null|exact Q]. Qed.

Section Top.
Variable beh : hinfo -> logent -> N -> script.
Variable k : key.
Definition OWr {A} (r : res A) : Prop := ~ ubf (res_fail r) -> OW k (res_world r).
Lemma rbind_OWr {A B} (r : res A) (f : A -> world -> res B) : OWr r -> (forall a w1, OW k w1 -> OWr (f a w1)) -> OWr (rbind r f).
Proof. destruct r as [a w1|e w1]; cbn [rbind]; [intros H Hf; apply Hf; apply H; cbn; tauto|intros H _; exact H]. Qed.

Lemma gev_OW fuel : forall tag w, OW k w -> OWr (add_global_event beh fuel tag w) /\ forall ev, OWr (send_global beh fuel tag ev w).
Proof.
  induction fuel as [|f IH]; intros tag w HP; [split; [|intros ev]; intros _; exact HP|].
  assert (Hadd : OWr (add_global_event beh (S f) tag w)).
  { rewrite add_global_event_unfold. destruct (alookup tag (w_gby w)); [intros _; exact HP|].
    destruct (insert_with (fun _ => mkE tag (gkind tag)) (w_gev w)) as [[k0 m]|]; [|intros _; exact HP].
    assert (HP2 : OW k (gev_entry_world w tag k0 m)) by (eapply OW_ro; [|exact HP]; reflexivity).
    apply rbind_OWr; [|intros ? ? X _; exact X]. apply (proj2 (IH G_ADDGE _ HP2)). }
  split; [exact Hadd|]. intros ev. rewrite send_global_unfold. destruct (IH tag w HP) as [Ka _].
  destruct (add_global_event beh f tag w) as [k0 w1|e w1]; unfold OWr in *; cbn [res_world res_fail] in *.
  - apply flush_OW. destruct (10 <? tag); [eapply OW_ro; [|apply Ka; cbn; tauto]; reflexivity|apply Ka; cbn; tauto].
  - intros Hn. eapply OW_ro; [apply (r_ev_drop ro); fr|now apply Ka].
Qed.
End Top.

Lemma reserve_not_null w id w' : SmInv (w_ents w) -> reserve w = ROk id w' -> id <> KEY_NULL.
Proof.
  intros (_ & _ & Hb) H. unfold reserve, nki_next in H. destruct (sget (slots (w_ents w)) (w_rcur w)) as [s|] eqn:Es.
  - destruct (N.even (gen s)); [|discriminate]. inversion H; subst. apply sget_lt in Es. unfold KEY_NULL. intros X. inversion X; try lia.
  - destruct (w_rcur w <? U32MAX) eqn:El; [|discriminate]. inversion H; subst. apply N.ltb_lt in El. unfold KEY_NULL. intros X. inversion X; try lia.
Qed.

(* World::spawn on a world that satisfies the plain invariant: the id it returns is owed when the call returns; when
   nothing is reserved then (c03_no_reservation_pending_at_a_quiescent_point) it is the id of a live entity, or of
   one that a handler despawned during the call - dead for good *)
Theorem world_spawn_id_is_created beh w id w' : RO w -> op_spawn beh w = ROk id w' ->
  OW id w' /\ (w_rcnt w' = 0 -> sm_get id (w_ents w') <> None \/ Dead (w_ents w') id).
Proof.
  intros [A B] H. unfold op_spawn in H. destruct (reserve w) as [id0 w1|f w1] eqn:Er; cbn [rbind] in H; [|discriminate].
  pose proof (reserved_id_is_owed w id0 w1 A B Er) as HO. pose proof (reserve_not_null w id0 w1 A Er) as Hnn.
  pose proof (proj2 (gev_OW beh id0 RFUEL G_SPAWN w1 HO) (mkEv 0 0 id0)) as HS. unfold OWr in HS.
  destruct (send_global beh RFUEL G_SPAWN (mkEv 0 0 id0) w1) as [[] w2|f w2]; cbn [rbind res_world res_fail] in *; [|discriminate].
  inversion H; subst id w'. clear H.
  assert (HF : OW id0 (push_known w2 id0)) by (eapply OW_ro; [apply (r_push_known ro); fr|apply HS; cbn; tauto]).
  split; [exact HF|]. intros Hz. destruct (OW_quiet _ _ HF Hz) as [N0|C]; [contradiction|exact C].
Qed.

(* ... for every reachable world: after ANY history of calls (under the hypotheses of Quiet.reachable_Quiet) the world
   satisfies the plain invariant, so the statement above applies to the next World::spawn *)
Theorem reachable_RO beh fuel p ops : NoTakeSpawn beh -> no_exhaustion beh ops (world0 fuel p) ->
  let w := fold_left (run_top_all beh) ops (world0 fuel p) in elen w < U32MAX -> RO w.
Proof.
  intros Hnt Hne w Hl. split.
  { pose proof (reachable_ZI beh fuel p ops) as [[HD _] _]. destruct (DI_parts _ HD) as (HF & _). destruct HF as [[HW _] _].
    destruct HW as ((Hsm & _) & _). exact Hsm. }
  exists []. apply Quiet_ReserveInv. exact (reachable_Quiet beh fuel p ops Hnt Hne Hl).
Qed.
Theorem reachable_world_spawn_id_is_created beh fuel p ops id w' : NoTakeSpawn beh -> no_exhaustion beh ops (world0 fuel p) ->
  let w := fold_left (run_top_all beh) ops (world0 fuel p) in elen w < U32MAX ->
  op_spawn beh w = ROk id w' -> w_rcnt w' = 0 -> sm_get id (w_ents w') <> None \/ Dead (w_ents w') id.
Proof.
  intros Hnt Hne w Hl Hs Hz. exact (proj2 (world_spawn_id_is_created beh w id w' (reachable_RO beh fuel p ops Hnt Hne Hl) Hs) Hz).
Qed.

(* ReserveW.reserved_ids_are_created without its capacity hypothesis: on a consistent world whose cursor is as the invariant
   says, spawn_all creates exactly the ids that were handed out, as component-less entities, leaves every existing entity
   alone, and leaves no reservation pending *)
Theorem reserved_ids_are_created_nocap w ks : WInv w -> reserved_ids w ks ->
  exists w', spawn_all w = ROk tt w' /\ WInv w' /\
             (forall k, In k ks -> sm_get k (w_ents w') <> None /\ forall c, abs w' k c = None) /\
             ext_by_spawn w w' /\ w_rcnt w' = 0 /\ reserved_ids w' [].
Proof. exact (spawn_all_creates_reserved w ks). Qed.

(* Quiet.quiet_reservation_is_kept without its capacity hypothesis: an id promised in a quiet world is the id of no
   existing entity and of the component-less entity the next materialisation creates, which cannot fail *)
Theorem quiet_reservation_is_kept_nocap w : WInv w -> Quiet w ->
  match reserve w with
  | ROk id w1 => exists w', spawn_all w1 = ROk tt w' /\ WInv w' /\ sm_get id (w_ents w) = None /\
                            sm_get id (w_ents w') <> None /\ (forall c, abs w' id c = None) /\ ext_by_spawn w1 w' /\ Quiet w'
  | RFail _ w1 => w1 = w
  end.
Proof. exact (quiet_reservation_kept w). Qed.

(* "stays valid until that entity is despawned".  LV k w: the entity map is well formed and k is live.  Every delivery
   keeps it unless the delivered event is a Despawn (the only built-in effect that removes an entity); handlers never
   change the entity map. *)
Section Live.
Variable k : key.
Definition LV (w : world) : Prop := SmInv (w_ents w) /\ sm_get k (w_ents w) <> None.
Lemma LV_shape w w' : shape (w_ents w') = shape (w_ents w) -> LV w -> LV w'.
Proof. intros Hs [A B]. split; [eapply sview_inv; eauto|eapply live_shape; eauto]. Qed.
Lemma LV_eo w w' : eo w' = eo w -> LV w -> LV w'.
Proof. intros H. apply LV_shape. exact (proj1 (eo_parts _ _ H)). Qed.
Lemma LV_ents w w' : w_ents w' = w_ents w -> LV w -> LV w'.
Proof. unfold LV. now intros ->. Qed.
Lemma LV_insert f w k0 m' : LV w -> insert_with f (w_ents w) = Some (k0, m') -> LV (set_ents w m').
Proof.
  intros [A B] E. split; cbn [w_ents set_ents]; [eapply insert_inv; eauto|].
  destruct (key_eq_dec k k0) as [->|Hne]; [rewrite (insert_get_new _ _ _ _ A E); discriminate|now rewrite (insert_get_other _ _ _ _ _ A E Hne)].
Qed.
Lemma spawn_all_n_LV n : forall w, LV w -> LV (res_world (spawn_all_n n w)).
Proof. apply (spawn_all_n_keeps LV). intros w0 k0 ents' E HP. exact (LV_ents (set_ents w0 ents') _ eq_refl (LV_insert _ w0 k0 ents' HP E)). Qed.
Lemma spawn_all_LV w : LV w -> LV (res_world (spawn_all w)).
Proof. apply (spawn_all_ents LV LV_ents LV_insert). Qed.
Lemma builtin_effect_LV kind ev loc w : kind <> KDespawn -> LV w -> LV (res_world (builtin_effect kind ev loc w)).
Proof.
  intros Hk HP. pose proof (eo_builtin_effect kind ev loc w) as He.
  destruct kind as [|c|c| |]; [exact HP|eapply LV_eo; eauto|eapply LV_eo; eauto|exact (spawn_all_ents LV LV_ents LV_insert w HP)|contradiction].
Qed.

(* the removal itself: it takes exactly the entity stored at the row (DeadEnts.remove_entity_dead: that one becomes
   dead); every other live id stays live *)
Lemma LV_remove w k1 v m' : LV w -> k1 <> k -> sm_remove k1 (w_ents w) = Some (v, m') -> LV (set_ents w m').
Proof.
  intros [A B] Hne E. split; cbn [w_ents set_ents]; [eapply remove_inv; eauto|].
  rewrite (remove_get_other _ _ _ _ _ A E (fun X => Hne (eq_sym X))). exact B.
Qed.
Theorem remove_entity_spares_the_others w ai row a e vals : LV w ->
  slab_get (w_archs w) ai = Some a -> nget (a_rows a) row = Some (e, vals) -> e <> k ->
  LV (res_world (remove_entity w (ai, row))).
Proof.
  intros HP Ha Hr Hne. apply remove_entity_eo; [exact LV_eo| |exact HP]. intros a' e' vals' v m' Ha' Hr'. apply LV_remove; [exact HP|congruence].
Qed.

Variable beh : hinfo -> logent -> N -> script.
(* the registered kind of the delivered event *)
Definition item_kind (w : world) (it : qitem) : option ekind :=
  if qi_targeted it then option_map (fun x => e_kind (snd x)) (get_by_index (w_tev w) (qi_idx it))
  else option_map (fun x => e_kind (snd x)) (get_by_index (w_gev w) (qi_idx it)).

Theorem live_until_despawned it w : LV w -> item_kind w it <> Some KDespawn -> LV (snd (fst (deliver_one beh it w))).
Proof.
  intros HP Hk. revert HP. apply (sw_deliver_one beh LV) with (R := fun w' _ => LV w'); [|auto|].
  - apply ro_swalks; [intros w1 w2 H; apply LV_ents; now apply ro_ents|intros w1; apply LV_ents, reserve_ents].
  - intros k0 info ev loc w1 Hi _ _ H _. revert H. apply builtin_effect_LV. intros X. apply Hk. unfold item_kind. unfold item_reg in Hi.
    destruct (qi_targeted it); rewrite Hi; cbn [option_map snd]; now rewrite X.
Qed.
End Live.

(* on a consistent world, despawning t at its own location takes t and nothing else: t becomes dead for good, every
   other live id stays live *)
Theorem despawn_takes_exactly_its_target w t ai row k : StoreInv w -> sm_get t (w_ents w) = Some (ai, row) ->
  match remove_entity w (ai, row) with
  | ROk _ w' => Dead (w_ents w') t /\ (t <> k -> sm_get k (w_ents w) <> None -> sm_get k (w_ents w') <> None)
  | RFail _ _ => True
  end.
Proof.
  intros (Hsm & Hloc & _) Ht. destruct (Hloc t ai row Ht) as (a & vals & Ha & Hr). unfold arch_at in Ha.
  pose proof (remove_entity_dead w ai row a t vals Hsm Ha Hr) as HD.
  pose proof (fun Hne HL => remove_entity_spares_the_others k w ai row a t vals (conj Hsm HL) Ha Hr Hne) as HS.
  destruct (remove_entity w (ai, row)) as [[] w'|f w']; [|exact I]. cbn [res_world] in HS.
  split; [exact (proj2 HD)|]. intros Hne HL. exact (proj2 (HS Hne HL)).
Qed.

(* not vacuous, and "from the moment its Spawn event has been delivered", not before: on a map with one live
   entity and one recycled slot, the two ids NextKeyIter promises are neither live nor dead; after the two
   insertions both are live *)
Definition mx : smap eloc :=
  match inserts 2%nat (fun _ => (0, 0)) sm_empty with
  | Some (_, m) => match sm_remove (0, 1) m with Some (_, m') => m' | None => m end
  | None => sm_empty
  end.
Example promised_ids_are_not_created_yet :
  predict 2%nat (next_key_iter mx) mx = Some ([(0, 3); (2, 1)], 3) /\
  (forall k, In k [(0, 3); (2, 1)] -> ~ created mx k) /\
  (exists m', inserts 2%nat (fun _ => (0, 0)) mx = Some ([(0, 3); (2, 1)], m') /\ forall k, In k [(0, 3); (2, 1)] -> sm_get k m' <> None).
Proof.
  split; [reflexivity|]. split.
  - intros k [<-|[<-|[]]] [L|(s & Hs & Hd)]; try (apply L; reflexivity); vm_compute in Hs; inversion Hs; subst s; cbn in Hd; lia.
  - eexists. split; [reflexivity|]. intros k [<-|[<-|[]]]; vm_compute; discriminate.
Qed.
