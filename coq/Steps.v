(* Steps.v : one delivery and one propagation as sequences of steps.
   A step is either quiet (it leaves the extended structure and the event registries alone: this is all a handler
   body, the destruction of an event value, the reservation cursor and the reset counter can do) or one of the five
   storage operations, each with what is known when it is made.  Under the storage invariant a delivery, the unwinding
   and a whole propagation are sequences of steps; so an invariant that every step keeps, given the invariants below it
   in the world the step starts from ([stable]), is kept by all three. *)
From Coq Require Import List NArith Bool Sorted.
Import ListNotations.
Require Import EV.Base EV.ListN EV.Access EV.Query EV.QueryInd EV.SlotMap EV.Reserve EV.HList EV.Loop EV.World EV.SlotMapGet
  EV.ArchProofs EV.WorldFrame EV.Layer EV.Store EV.Graph EV.Effects EV.Reach.
Open Scope N_scope.

(* the components of a new archetype are those of the archetype it is reached from, plus at most the component of a
   registered Insert event *)
Definition ins_kind (w : world) (c : N) : Prop :=
  exists i k info, (get_by_index (w_tev w) i = Some (k, info) \/ get_by_index (w_gev w) i = Some (k, info)) /\ e_kind info = KInsert c.
Definition comp_known (w : world) (c : N) : Prop := (exists ai a, arch_at w ai = Some a /\ In c (a_comps a)) \/ ins_kind w c.

(* the steps that create no archetype *)
Inductive sstep : world -> world -> Prop :=
| ss_quiet w w' : quiet w w' -> sstep w w'
| ss_edges w ai i r : sstep w (upd_arch w ai (fun a => set_edges a (i a) (r a)))
| ss_move w src dst nw w' : move_entity w src dst nw = ROk tt w' -> sstep w w'
| ss_remove w loc w' : remove_entity w loc = ROk tt w' -> sstep w w'
| ss_spawn w : sstep w (res_world (spawn_all w)).

Inductive step : world -> world -> Prop :=
| st_same w w' : sstep w w' -> step w w'
| st_create w cs i r : SlabInv (w_archs w) -> StronglySorted N.lt cs -> (forall c, In c cs -> comp_known w c) ->
    step w (snd (create_arch w cs i r)).
Arguments st_same {w w'}.

Section SFrame.
Context {T : Type} (pi : world -> T).
Hypothesis f_quiet : forall w w', quiet w w' -> pi w' = pi w.
Hypothesis f_set_ents : forall w x, pi (set_ents w x) = pi w.
Hypothesis f_set_res : forall w a b, pi (set_res w a b) = pi w.
Hypothesis f_notify_refresh : forall w ai, pi (notify_refresh w ai) = pi w.
Hypothesis f_notify_remove_with : forall w ai a, pi (notify_remove_with w ai a) = pi w.
Hypothesis f_set_archs : forall w x, pi (set_archs w x) = pi w.
Hypothesis f_set_drops : forall w x, pi (set_drops w x) = pi w.
Lemma sstep_frame w w' : sstep w w' -> pi w' = pi w.
Proof.
  intros [w0 w1 A|w0 ai i r|w0 src dst nw w1 E|w0 loc w1 E|w0]; [now apply f_quiet|now apply r_upd_arch| | |now apply r_spawn_all].
  - change w1 with (res_world (ROk tt w1)). rewrite <- E. now apply r_move_entity.
  - change w1 with (res_world (ROk tt w1)). rewrite <- E. now apply r_remove_entity.
Qed.
End SFrame.

Inductive steps : world -> world -> Prop :=
| steps_refl w : steps w w
| steps_cons w w1 w2 : step w w1 -> steps w1 w2 -> steps w w2.

Lemma steps_one w w' : step w w' -> steps w w'.
Proof. intros H. exact (steps_cons _ _ _ H (steps_refl _)). Qed.
Lemma steps_trans w w1 w2 : steps w w1 -> steps w1 w2 -> steps w w2.
Proof. induction 1 as [|a b c S _ IH]; [auto|]. intros H. exact (steps_cons _ _ _ S (IH H)). Qed.

Definition stable (K J : world -> Prop) : Prop := forall w w', step w w' -> K w -> J w -> J w'.

Lemma stable_and (K J : world -> Prop) : stable (fun _ => True) K -> stable K J -> stable (fun _ => True) (fun w => K w /\ J w).
Proof. intros H1 H2 w w' S _ [HK HJ]. split; [exact (H1 w w' S I HK)|exact (H2 w w' S HK HJ)]. Qed.
Lemma steps_keep (J : world -> Prop) w w' : stable (fun _ => True) J -> steps w w' -> J w -> J w'.
Proof. intros HS. induction 1 as [|a b c S _ IH]; [auto|]. intros HJ. exact (IH (HS a b S I HJ)). Qed.

(* the conjunctions the tower is made of contain RInv, which is not kept by every step (a step forgets what makes a
   cached edge or a new archetype right for GraphInv) and has its own proof (Reach.v): [X] is kept along a sequence of
   steps that ends in a world where RInv holds *)
Definition kept (X : world -> Prop) : Prop := (forall w, X w -> RInv w) /\ forall w w', steps w w' -> RInv w' -> X w -> X w'.
Lemma kept_RInv : kept RInv.
Proof. split; auto. Qed.
Lemma kept_and (X K J : world -> Prop) :
  kept X -> (forall w, X w -> K w) -> stable (fun _ => True) K -> stable K J -> kept (fun w => X w /\ J w).
Proof.
  intros [HR HX] HK S1 S2. split; [intros w [A _]; auto|]. intros w w' C R [A B].
  split; [exact (HX _ _ C R A)|exact (proj2 (steps_keep _ _ _ (stable_and _ _ S1 S2) C (conj (HK _ A) B)))].
Qed.
Lemma stable_True : stable (fun _ => True) (fun _ => True).
Proof. repeat intro. exact I. Qed.

Lemma step_registries w w' : step w w' -> registries w' = registries w.
Proof. intros [w0 w1 S|w0 cs i r _ _ _]; [apply (sstep_frame registries); try exact S; try fr; now intros x x' [_ B]|fr]. Qed.
Lemma GevKinds_stable : stable (fun _ => True) GevKinds.
Proof. intros w w' S _. exact (GevKinds_registries _ _ (step_registries _ _ S)). Qed.


(* both traversals as instances of the rules of WorldFrame.v: a cached transition is a step, and the neighbour that is
   created has the source's components plus or minus [c] *)
Lemma edges_steps w src w1 i r : steps w w1 -> steps w (upd_arch w1 src (fun a => set_edges a (i a) (r a))).
Proof. intros C. exact (steps_trans _ _ _ C (steps_one _ _ (st_same (ss_edges w1 src i r)))). Qed.
Lemma traverse_insert_steps w src c : GraphInv w -> comp_known w c -> steps w (res_world (traverse_insert w src c)).
Proof.
  intros (Hs & _ & _ & _ & _ & Hso) Hc. apply (traverse_insert_keeps (steps w)); [exact (edges_steps w src)| |apply steps_refl].
  intros sa Ha Hh. apply steps_one, st_create; [exact Hs| |].
  - apply sorted_insert_sorted; [exact (Hso _ _ Ha)|]. intros X. apply arch_has_in in X. congruence.
  - intros x Hx. apply sorted_insert_in in Hx as [->|Hx]; [exact Hc|]. left. eauto.
Qed.
Lemma traverse_remove_steps w src c : GraphInv w -> steps w (res_world (traverse_remove w src c)).
Proof.
  intros (Hs & _ & _ & _ & _ & Hso). apply (traverse_remove_keeps (steps w)); [exact (edges_steps w src)| |apply steps_refl].
  intros sa Ha _. apply steps_one, st_create; [exact Hs|exact (filter_sorted c _ (Hso _ _ Ha))|].
  intros x Hx. apply filter_In in Hx as [Hx _]. left. eauto.
Qed.

(* under WInv a row operation that fails leaves the world as it was: what the traversals, spawn_all and the row
   operations that succeed keep is kept by builtin_effect *)
Section EffectOk.
Variables (P : world -> Prop) (kind : ekind) (ev : evv) (loc : eloc) (w : world).
Hypothesis HW : WInv w.
Hypothesis P_ti : forall c, kind = KInsert c -> P (res_world (traverse_insert w (fst loc) c)).
Hypothesis P_tr : forall c, kind = KRemove c -> P (res_world (traverse_remove w (fst loc) c)).
Hypothesis P_move : forall w1 d nw w2, move_entity w1 loc d nw = ROk tt w2 -> P w1 -> P w2.
Hypothesis P_spawn : forall w1, P w1 -> P (res_world (spawn_all w1)).
Hypothesis P_remove : forall w1 w2, remove_entity w1 loc = ROk tt w2 -> P w1 -> P (refresh_cursor w2).
Lemma builtin_effect_keeps_ok : P w -> P (res_world (builtin_effect kind ev loc w)).
Proof.
  intros HP. pose proof HW as (Hst & Hg & _).
  assert (Hmv : forall w2 d nw, StoreInv w2 -> P w2 -> P (res_world (move_entity w2 loc d nw))).
  { intros w2 d nw H2 C. destruct (move_entity w2 loc d nw) as [[] w3|f w3] eqn:E; cbn [res_world];
      [exact (P_move _ _ _ _ E C)|now rewrite (move_entity_fail _ _ _ _ _ _ H2 E)]. }
  destruct kind as [|c|c| |]; cbn [builtin_effect].
  - exact HP.
  - pose proof (P_ti c eq_refl) as C. pose proof (traverse_insert_ok w (fst loc)) as Hok. unfold arch_at in Hok.
    destruct (slab_get (w_archs w) (fst loc)) as [sa|] eqn:Ha; [|unfold traverse_insert; rewrite Ha; exact HP].
    destruct (Hok sa c Hst Hg eq_refl) as (d & w1 & Et & H1 & _). rewrite Et in *. now apply Hmv.
  - pose proof (P_tr c eq_refl) as C. pose proof (traverse_remove_ok w (fst loc)) as Hok. unfold arch_at in Hok.
    destruct (slab_get (w_archs w) (fst loc)) as [sa|] eqn:Ha; [|unfold traverse_remove; rewrite Ha; exact HP].
    destruct (Hok sa c Hst Hg eq_refl) as (d & w1 & Et & H1 & _). rewrite Et in *. now apply Hmv.
  - now apply P_spawn.
  - pose proof (P_spawn w HP) as C. pose proof (spawn_all_ok w HW) as Hsp. destruct (spawn_all w) as [[] w2|f w2]; cbn [rbind res_world] in *; [|exact C].
    destruct (remove_entity w2 loc) as [[] w3|f w3] eqn:E; cbn [rbind res_world];
      [exact (P_remove _ _ E C)|now rewrite (remove_entity_fail _ _ _ _ (proj1 (proj1 Hsp)) E)].
Qed.
End EffectOk.

Lemma builtin_effect_steps kind ev loc w :
  WInv w -> (forall c, kind = KInsert c -> ins_kind w c) -> steps w (res_world (builtin_effect kind ev loc w)).
Proof.
  intros HW Hk. pose proof (proj1 (proj2 HW)) as Hg.
  apply (builtin_effect_keeps_ok (steps w)); [exact HW|intros c E; exact (traverse_insert_steps w _ c Hg (or_intror (Hk c E)))|intros c _; now apply traverse_remove_steps| | | |apply steps_refl].
  - intros w1 d nw w2 E C. exact (steps_trans _ _ _ C (steps_one _ _ (st_same (ss_move _ _ _ _ _ E)))).
  - intros w1 C. exact (steps_trans _ _ _ C (steps_one _ _ (st_same (ss_spawn w1)))).
  - intros w1 w2 E C. refine (steps_trans _ _ _ C (steps_cons _ _ _ (st_same (ss_remove _ _ _ E)) (steps_one _ _ _))). now apply st_same, ss_quiet.
Qed.

Section WithBeh.
Variable beh : hinfo -> logent -> N -> script.

Lemma deliver_one_steps it w : WInv w -> steps w (snd (fst (deliver_one beh it w))).
Proof.
  intros HW. assert (C1 : forall w1, quiet w w1 -> steps w w1) by (intros w1 Hq; exact (steps_one _ _ (st_same (ss_quiet w w1 Hq)))).
  apply (sw_deliver_one beh _ (quiet_swalks w) (fun w' _ => steps w w')); [intros w1 _; apply C1| |apply quiet_refl]. intros k info ev loc w1 Hr _ _ Hq _.
  apply (steps_trans _ _ _ (C1 _ Hq)), builtin_effect_steps; [exact (WInv_structure _ _ (structure_of_L _ _ (proj1 Hq)) HW)|].
  intros c Ec. destruct (quiet_fields _ _ Hq) as (_ & _ & _ & Eg & Et). exists (qi_idx it), k, info. unfold item_reg in Hr. rewrite Eg, Et.
  destruct (qi_targeted it); auto.
Qed.

Lemma unwind_steps q w : steps w (res_world (spawn_all (unwind_queue q w))).
Proof.
  refine (steps_cons _ _ _ _ (steps_one _ _ (st_same (ss_spawn _)))). apply st_same, ss_quiet. split; [|apply unwind_queue_keeps_registries].
  unfold unwind_queue. apply (fold_left_pres structureL). intros. apply sl_ev_drop.
Qed.

Lemma flush_loop_steps n q w tr s' oc :
  Loop.flush wst qitem (run_w beh) unwind_w n q (w, None) [] = Some (tr, s', oc) -> RInv w -> steps w (fst s').
Proof.
  intros H HR. refine (proj2 (flush_w_keeps beh (fun w' => RInv w' /\ steps w w') _ _ n q (w, None) [] tr s' oc H (conj HR (steps_refl w)))).
  - intros it w0 [H0 C0]. exact (conj (deliver_one_RInv beh it w0 H0) (steps_trans _ _ _ C0 (deliver_one_steps it w0 (proj1 H0)))).
  - intros q0 w0 [H0 C0]. exact (conj (unwind_RInv q0 w0 H0) (steps_trans _ _ _ C0 (unwind_steps q0 w0))).
Qed.
Lemma flush_steps q w : RInv w -> steps w (res_world (flush beh q w)).
Proof.
  intros HR. apply flush_cases; [apply steps_refl| |]; intros tr w1 fl E; cbn [res_world]; pose proof (flush_loop_steps _ _ _ _ _ _ E HR) as C; [|exact C].
  apply (steps_trans _ _ _ C), steps_one, st_same, ss_quiet; now split.
Qed.

Section Keeps.
Variable J : world -> Prop.
Hypothesis HJ : stable (fun _ => True) J.
Lemma stable_deliver_one it w : WInv w -> J w -> J (snd (fst (deliver_one beh it w))).
Proof. intros HW. exact (steps_keep J _ _ HJ (deliver_one_steps it w HW)). Qed.
End Keeps.

Section Kept.
Variable X : world -> Prop.
Hypothesis HX : kept X.
Lemma kept_deliver_one it w : X w -> X (snd (fst (deliver_one beh it w))).
Proof. intros H. pose proof (proj1 HX w H) as HR. exact (proj2 HX _ _ (deliver_one_steps it w (proj1 HR)) (deliver_one_RInv beh it w HR) H). Qed.
Lemma kept_unwind q w : X w -> X (res_world (spawn_all (unwind_queue q w))).
Proof. intros H. exact (proj2 HX _ _ (unwind_steps q w) (unwind_RInv q w (proj1 HX w H)) H). Qed.
Lemma kept_flush q w : X w -> X (res_world (flush beh q w)).
Proof. intros H. pose proof (proj1 HX w H) as HR. exact (proj2 HX _ _ (flush_steps q w HR) (flush_RInv beh q w HR) H). Qed.
Lemma kept_unwind_w q (st : wst) : X (fst st) -> X (fst (unwind_w q st)).
Proof. intros H. pose proof (kept_unwind q _ H) as H1. unfold unwind_w. destruct (snd st) as [[k|s]|]; try exact H. cbn [fst]. destruct (spawn_all _); exact H1. Qed.
Lemma kept_flush_loop n q w tr s' oc : Loop.flush wst qitem (run_w beh) unwind_w n q (w, None) [] = Some (tr, s', oc) -> X w -> X (fst s').
Proof.
  intros E H. pose proof (proj1 HX w H) as HR. exact (proj2 HX _ _ (flush_loop_steps _ _ _ _ _ _ E HR) (flush_WInv beh _ _ _ _ _ _ E (proj1 HR) (proj2 HR)) H).
Qed.
End Kept.
End WithBeh.
