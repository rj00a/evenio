(* SlotMapLen.v : SlotMap::len (the live-entity count of C03) is the number of occupied slots, and over every
   operation sequence it equals the number of successful insertions minus the number of successful removals. *)
From Coq Require Import List NArith Bool Lia.
Import ListNotations.
Require Import EV.Base EV.ListN EV.SlotMap.
Open Scope N_scope.

Section Len.
Context {V : Type}.
Notation slot := (@slot V).
Notation smap := (@smap V).

Definition occb (s : slot) : nat := match val s with Some _ => 1%nat | None => 0%nat end.
Fixpoint occ (l : list slot) : nat := match l with [] => 0%nat | s :: t => (occb s + occ t)%nat end.
Definition LenInv (m : smap) : Prop := sm_len m = N.of_nat (occ (slots m)).

Lemma occ_app l1 l2 : occ (l1 ++ l2) = (occ l1 + occ l2)%nat.
Proof. induction l1 as [|x t IH]; cbn [occ app]; [reflexivity|]. rewrite IH. lia. Qed.

Lemma occ_supd l i s s' : sget l i = Some s -> (occ (supd l i s') + occb s = occ l + occb s')%nat.
Proof.
  revert i. induction l as [|x t IH]; intros i H; cbn [sget supd] in *; [discriminate|]. destruct (i =? 0); cbn [occ].
  - inversion H; subst. lia.
  - specialize (IH _ H). lia.
Qed.

Lemma occ_upd l : forall n s s', nth_error l n = Some s -> (occ (upd l n s') + occb s = occ l + occb s')%nat.
Proof. intros n s s' H. rewrite <- (Nat2N.id n), <- supd_upd. apply occ_supd. now rewrite sget_nth, Nat2N.id. Qed.

Lemma free_head_vacant (m : smap) s : SmInv m -> sget (slots m) (next_free m) = Some s -> val s = None.
Proof.
  intros HI Hs. pose proof HI as ((c & Hc & _) & _ & Hb). destruct (chain_head _ _ _ Hb Hc s Hs) as (rest & -> & _).
  exact (chain_vacant m _ _ _ s HI Hc (or_introl eq_refl) Hs).
Qed.

Lemma insert_len f (m : smap) k m' : SmInv m -> LenInv m -> insert_with f m = Some (k, m') -> LenInv m' /\ sm_len m' = sm_len m + 1.
Proof.
  intros HI HL H. destruct (insert_with_spec _ _ _ _ HI H) as (lk & Hlen & _ & Hcase). split; [|exact Hlen].
  unfold LenInv. rewrite Hlen, HL. destruct Hcase as [(s & Hs & Hv & _ & _ & ->)|(_ & _ & ->)].
  - pose proof (occ_supd _ _ _ (mkSlot (snd k) lk (Some (f k))) Hs) as Ho. unfold occb in Ho. rewrite Hv in Ho. cbn [val] in Ho. lia.
  - rewrite occ_app. cbn [occ occb val]. lia.
Qed.

Lemma remove_len k (m : smap) v m' : LenInv m -> sm_remove k m = Some (v, m') -> LenInv m' /\ sm_len m' + 1 = sm_len m.
Proof.
  intros HL H. destruct (sm_remove_spec _ _ _ _ H) as (s & s' & Hs & _ & Hv & _ & Hv' & Hsl & Hlen & _).
  pose proof (occ_supd _ _ _ s' Hs) as Ho. unfold occb in Ho. rewrite Hv, Hv' in Ho.
  unfold LenInv. rewrite Hsl, Hlen, HL. lia.
Qed.

(* over every operation sequence: len = insertions - removals, counting the successful ones *)
Definition sm_stepc (st : smap * N * N) (o : sm_op) : smap * N * N :=
  let '(m, i, r) := st in
  match o with
  | OIns f => match insert_with f m with Some (_, m') => (m', i + 1, r) | None => st end
  | ORem k => match sm_remove k m with Some (_, m') => (m', i, r + 1) | None => st end
  end.

Theorem sm_len_counts ops : let '(m, i, r) := fold_left sm_stepc ops (sm_empty, 0, 0) in
  SmInv m /\ LenInv m /\ sm_len m + r = i.
Proof.
  apply (fold_left_invariant (fun st => let '(m, i, r) := st in SmInv m /\ LenInv m /\ sm_len m + r = i)); [exact (conj empty_inv (conj eq_refl eq_refl))|].
  intros [[m i] r] o (HI & HL & He). destruct o as [f|k]; cbn [sm_stepc].
  - destruct (insert_with f m) as [[k m']|] eqn:E; [|auto]. destruct (insert_len f m k m' HI HL E) as [A B].
    split; [eapply insert_inv; eauto|split; [exact A|lia]].
  - destruct (sm_remove k m) as [[v m']|] eqn:E; [|auto]. destruct (remove_len k m v m' HL E) as [A B].
    split; [eapply remove_inv; eauto|split; [exact A|lia]].
Qed.
End Len.
