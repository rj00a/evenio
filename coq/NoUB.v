(* NoUB.v : evaluating the parameters of a handler never hits an unchecked failure (C01, C10).
   On a world satisfying the storage and cache invariants, [param_views] - HandlerParam::get of every
   parameter: the Fetcher / Single views with their random-access probes, and the targeted
   receiver's item - either succeeds or raises the documented Single panic; it never reaches a stale
   cache entry, a freed archetype, a wrong column or a missing row (the model's FUB sites 0, 103-105,
   660-664). *)
From Coq Require Import List NArith Bool Lia Sorted Permutation.
Import ListNotations.
Require Import EV.Base EV.ListN EV.Access EV.Query EV.SlotMap EV.Reserve EV.HList EV.Loop EV.World EV.SlotMapGet
  EV.AccessProofs EV.ArchProofs EV.QueryProofs EV.WorldFrame EV.Layer EV.Store EV.Register EV.Graph EV.Effects EV.Reach EV.Steps EV.RemoveComp EV.Member EV.Listen EV.Order EV.Fetch.
Open Scope N_scope.

Definition is_ub {A} (r : fail + A) : Prop := match r with inl (FUB _) => True | _ => False end.

(* random access through a fetcher *)
Lemma fetch_get_ok w q c e : StoreInv w -> CI w q c -> ~ is_ub (fetch_get w q c e).
Proof.
  intros (_ & Hl & _) HC. unfold fetch_get. destruct (sm_get e (w_ents w)) as [[ai row]|] eqn:He; [|cbn; tauto].
  destruct (find (fun ce => ce_idx ce =? fst (ai, row)) c) as [[[j u] ep]|] eqn:Ef; [|cbn; tauto].
  apply find_some in Ef as [Hin Ej]. cbn [ce_idx fst] in Ej. apply N.eqb_eq in Ej. subst j.
  destruct HC as [Hnd Hg]. pose proof Hin as Hin'. apply (Hg ai) in Hin' as (a & Ha & _ & Hm & _ & _).
  destruct (Hl _ _ _ He) as (a0 & vals & Ha0 & Hrow). rewrite Ha in Ha0. inversion Ha0; subst a0.
  destruct (recv_item_ok w q c (ai, row) a e vals (conj Hnd Hg) Ha Hm Hrow) as (st & _ & ->). cbn. tauto.
Qed.

Lemma fetch_get_all_ok w q c es : StoreInv w -> CI w q c -> ~ is_ub (fetch_get_all w q c es).
Proof.
  intros Hst HC. induction es as [|e t IH]; cbn [fetch_get_all]; [cbn; tauto|].
  pose proof (fetch_get_ok w q c e Hst HC) as H1. destruct (fetch_get w q c e) as [f|[code its]]; [exact H1|].
  destruct code as [|p]; [cbn; tauto|]. (* codes are small numerals: inspect them *)
  destruct (fetch_get_all w q c t) as [f|[code2 r]] eqn:E2.
  - repeat (destruct p as [p|p|]; try (cbn; tauto)); exact IH.
  - repeat (destruct p as [p|p|]; try (cbn; tauto)); destruct code2 as [|p2]; try (cbn; tauto); repeat (destruct p2 as [p2|p2|]; try (cbn; tauto)).
Qed.

Lemma fetch_get_many_ok w q c es : StoreInv w -> CI w q c -> ~ is_ub (fetch_get_many w q c es).
Proof. intros Hst HC. unfold fetch_get_many. destruct (has_dup es); [cbn; tauto|now apply fetch_get_all_ok]. Qed.

Lemma run_probes_ok w q c ps : StoreInv w -> CI w q c -> ~ is_ub (run_probes w q c ps).
Proof.
  intros Hst HC. induction ps as [|[many es] t IH]; cbn [run_probes]; [cbn; tauto|].
  set (r := if many then _ else _).
  assert (Hr : ~ is_ub r).
  { unfold r. destruct many; [now apply fetch_get_many_ok|]. destruct es as [|e es']; [cbn; tauto|now apply fetch_get_ok]. }
  destruct r as [f|x]; [exact Hr|]. destruct (run_probes w q c t) as [f|xs]; [exact IH|cbn; tauto].
Qed.

(* the conditions under which a handler's parameters can be evaluated at location [loc] *)
Definition params_ready (w : world) (ps : list rparam) (loc : eloc) : Prop :=
  forall p q c, In p ps -> pquery p = Some (q, c) -> CI w q c /\
    (forall m, p = RRecvT m q c -> exists a k vals, arch_at w (fst loc) = Some a /\ amatch a q = true /\ nget (a_rows a) (snd loc) = Some (k, vals)).

Theorem param_views_ok w ps loc : StoreInv w -> params_ready w ps loc -> ~ is_ub (param_views w ps loc).
Proof.
  intros Hst. induction ps as [|p t IH]; intros Hr; cbn [param_views]; [cbn; tauto|].
  assert (Hrt : params_ready w t loc) by (intros p0 q c Hin Hq; apply Hr; [now right|exact Hq]).
  specialize (IH Hrt). destruct p as [m|m q c|k q c|g tt0].
  - exact IH.
  - destruct (Hr (RRecvT m q c) q c (or_introl eq_refl) eq_refl) as [HC Hx]. destruct (Hx m eq_refl) as (a & k0 & vals & Ha & Hm & Hrow).
    destruct (recv_item_ok w q c loc a k0 vals HC Ha Hm Hrow) as (st & _ & ->). destruct (param_views w t loc) as [f|[r v]]; [exact IH|cbn; tauto].
  - destruct (Hr (RFetch k q c) q c (or_introl eq_refl) eq_refl) as [HC _]. destruct (cache_items_ok w q c HC) as (its & -> & _).
    destruct k.
    + pose proof (run_probes_ok w q c (probe_lists (k_ids (w_h w))) Hst HC) as Hp. destruct (run_probes w q c _) as [f|probes]; [exact Hp|].
      destruct (param_views w t loc) as [f|[r v]]; [exact IH|cbn; tauto].
    + destruct (negb (nlen (map snd its) =? 1)); [cbn; tauto|]. destruct (param_views w t loc) as [f|[r v]]; [exact IH|cbn; tauto].
    + destruct (param_views w t loc) as [f|[r v]]; [exact IH|cbn; tauto].
  - exact IH.
Qed.

(* for the handlers of a world satisfying the cache invariant, the Fetcher / Single parameters are always ready *)
Lemma fetch_params_ready w hk h loc : XI w -> hlive w hk h -> (forall m q c, ~ In (RRecvT m q c) (h_params h)) -> params_ready w (h_params h) loc.
Proof.
  intros HX Hl Hno p q c Hin Hq. split; [exact (FI_CI w hk h p q c (proj1 HX) Hl Hin Hq)|].
  intros m ->. exfalso. eapply Hno; eauto.
Qed.

Definition pkind (p : rparam) : option (bool * query) := match p with RRecvT _ q _ => Some (true, q) | RFetch _ q _ => Some (false, q) | _ => None end.
Definition pks (h : hinfo) : list (option (bool * query)) := map pkind (h_params h).
Definition psend (p : rparam) : option (list (N * N) * list (N * N)) := match p with RSender g t => Some (g, t) | _ => None end.
Definition pss (h : hinfo) := map psend (h_params h).
Definition hview3 (h : hinfo) := (hstat h, pks h, pss h).
Definition hv3 (w : world) := sview hview3 (w_hs w).

(* the filter of a handler implies each of its targeted-receiver queries; a handler of a global event has no targeted receiver *)
Definition Phi (h : hinfo) : Prop :=
  (forall q, In (Some (true, q)) (pks h) -> forall has, ca_matches has (h_filter h) = true -> ca_matches has (access_of q) = true) /\
  (forall ek, h_recv h = RvGlobal ek -> forall q, ~ In (Some (true, q)) (pks h)).
Definition SInv (w : world) : Prop := forall hk h, hlive w hk h -> Phi h.

Lemma Phi_view h h' : hview3 h' = hview3 h -> Phi h -> Phi h'.
Proof.
  unfold hview3. intros E [A B]. assert (Es : hstat h' = hstat h) by congruence. assert (Ep : pks h' = pks h) by congruence.
  assert (Ef : h_filter h' = h_filter h) by exact (f_equal h_filter Es). assert (Er : h_recv h' = h_recv h) by exact (f_equal h_recv Es).
  split; [intros q Hin has Hm; rewrite Ep in Hin; rewrite Ef in Hm; eauto|]. intros ek Hr q Hin. rewrite Ep in Hin. rewrite Er in Hr. eapply B; eauto.
Qed.

Definition hs_le (w' w : world) : Prop := forall hk h', hlive w' hk h' -> exists h, hlive w hk h /\ hview3 h' = hview3 h.
Lemma hs_le_refl w : hs_le w w. Proof. intros hk h H. eauto. Qed.
Lemma hs_le_trans a b c : hs_le a b -> hs_le b c -> hs_le a c.
Proof. intros H1 H2 hk h X. destruct (H1 hk h X) as (h1 & A & B). destruct (H2 hk h1 A) as (h2 & C & D). exists h2. split; [exact C|congruence]. Qed.
Lemma hs_le_hv3 w' w : hv3 w' = hv3 w -> hs_le w' w.
Proof.
  unfold hv3. intros Hv hk h' Hl. unfold hlive in *. pose proof (sview_get hview3 (w_hs w) (w_hs w') hk Hv) as E. rewrite Hl in E.
  destruct (sm_get hk (w_hs w)) as [h|]; cbn in E; [|discriminate]. exists h. split; [reflexivity|congruence].
Qed.
Lemma SInv_le w' w : hs_le w' w -> SInv w -> SInv w'.
Proof. intros Hle HS hk h' Hl. destruct (Hle hk h' Hl) as (h & A & B). eapply Phi_view; eauto. Qed.

Lemma hview3_skel h : hview3 (hskel h) = hview3 h.
Proof. unfold hview3, pks, pss, hskel. cbn [h_params set_params]. rewrite !map_map. f_equal; [f_equal|]; apply map_ext; intros p; now destruct p. Qed.
Lemma hv3_hsk w w' : hsk w' = hsk w -> hv3 w' = hv3 w.
Proof. exact (skel_view hview3 w w' hview3_skel). Qed.
Lemma hv3_hfix w w' : hfix w' = hfix w -> hv3 w' = hv3 w.
Proof. intros H. exact (hv3_hsk w w' (hsk_hfix w w' H)). Qed.

Section H3.
Variable beh : hinfo -> logent -> N -> script.

Lemma hv3_flush q w : hv3 (res_world (flush beh q w)) = hv3 w.
Proof. apply hv3_hfix, hfix_flush. Qed.
Lemma hv3_send_global tag ev w : hv3 (res_world (send_global beh RFUEL tag ev w)) = hv3 w.
Proof. apply hv3_hsk, hsk_send_global. Qed.
End H3.

Lemma hs_le_hs w' w : w_hs w' = w_hs w -> hs_le w' w.
Proof. intros E. apply hs_le_hv3. unfold hv3. now rewrite E. Qed.
Lemma rbind_le {A B} (r : res A) (f : A -> world -> res B) w :
  hs_le (res_world r) w -> (forall a w1, hs_le (res_world (f a w1)) w1) -> hs_le (res_world (rbind r f)) w.
Proof. intros H1 H2. destruct r as [a w1|e w1]; cbn [rbind res_world] in *; [eapply hs_le_trans; eauto|exact H1]. Qed.

Lemma sm_remove_le {V} (m m' : smap V) k v x y : sm_remove k m = Some (v, m') -> sm_get x m' = Some y -> sm_get x m = Some y.
Proof.
  unfold sm_remove, sm_get. destruct (sget (slots m) (fst k)) as [s|] eqn:Es; [|discriminate]. destruct (gen s =? snd k); [|discriminate]. destruct (val s) as [v0|]; [|discriminate].
  intros H. destruct (N.eq_dec (fst x) (fst k)) as [E|E].
  - rewrite E. destruct (wrap_succ (gen s) =? 0); inversion H; subst; cbn [slots]; erewrite sget_supd_eq by eauto; cbn [gen val]; destruct (_ =? snd x); discriminate.
  - destruct (wrap_succ (gen s) =? 0); inversion H; subst; cbn [slots]; now rewrite sget_supd_neq by auto.
Qed.

Section LeOps.
Variable beh : hinfo -> logent -> N -> script.

Lemma hs_le_send_global tag ev w : hs_le (res_world (send_global beh RFUEL tag ev w)) w.
Proof. apply hs_le_hv3, hv3_send_global. Qed.

Lemma hs_le_handler_exit w1 k h w2 : handlers_remove w1 k = Some (h, w2) -> hs_le (archs_remove_handler w2 h) w1.
Proof.
  intros Eh. destruct (handlers_remove_inv w1 k h w2 Eh) as (hs & Er & ->).
  intros hk h' Hl. unfold hlive in *. change (w_hs (archs_remove_handler _ h)) with hs in Hl. exists h'. split; [eapply sm_remove_le; eauto|reflexivity].
Qed.
Lemma hs_le_remove_handler k w : hs_le (res_world (remove_handler beh k w)) w.
Proof.
  unfold remove_handler. destruct (sm_get k (w_hs w)) as [h0|]; [|apply hs_le_refl]. apply rbind_le; [apply hs_le_send_global|]. intros [] w1.
  destruct (handlers_remove w1 k) as [[h w2]|] eqn:Eh; [exact (hs_le_handler_exit w1 k h w2 Eh)|apply hs_le_refl].
Qed.
Lemma hs_le_remove_handlers ks : forall w, hs_le (res_world (remove_handlers beh ks w)) w.
Proof. induction ks as [|k t IH]; intros w; cbn [remove_handlers]; [apply hs_le_refl|]. apply rbind_le; [apply hs_le_remove_handler|]. intros b w1. apply IH. Qed.
Lemma hs_le_remove_targeted_event k w : hs_le (res_world (remove_targeted_event beh k w)) w.
Proof.
  unfold remove_targeted_event. destruct (sm_get k (w_tev w)); [|apply hs_le_refl]. apply rbind_le; [apply hs_le_send_global|]. intros [] w1.
  apply rbind_le; [apply hs_le_remove_handlers|]. intros [] w2. destruct (sm_remove k (w_tev w2)) as [[info m]|]; [|apply hs_le_refl]. apply hs_le_hs. destruct (e_kind info); reflexivity.
Qed.
Lemma hs_le_remove_tevents ks : forall w, hs_le (res_world (remove_tevents beh ks w)) w.
Proof. induction ks as [|k t IH]; intros w; cbn [remove_tevents]; [apply hs_le_refl|]. apply rbind_le; [apply hs_le_remove_targeted_event|]. intros b w1. apply IH. Qed.

Lemma hv3_archs_remove_component cidx ctag w l : hv3 (archs_remove_component w cidx ctag l) = hv3 w.
Proof. apply hv3_hfix, (arc_pres cidx ctag hfix); [|reflexivity]. intros w0 ai a D. exact (hfix_notify_remove_with _ ai a). Qed.
Lemma hs_le_archs_remove_component cidx ctag w l : hs_le (archs_remove_component w cidx ctag l) w.
Proof. apply hs_le_hv3, hv3_archs_remove_component. Qed.
End LeOps.

(* the configuration collected by init_params: filter implies each targeted query; targeted receivers fix the receiver kind *)
Definition CfInv2 (c : hconfig) : Prop :=
  (forall q, In (Some (true, q)) (map pkind (cf_params c)) -> forall has, ca_matches has (cf_filter c) = true -> ca_matches has (access_of q) = true) /\
  ((exists q, In (Some (true, q)) (map pkind (cf_params c))) -> match cf_recv c with RcOk (RvTargeted _) | RcInvalid => True | _ => False end).

Lemma CfInv2_cfg0 : CfInv2 cfg0.
Proof. split; [intros q []|intros (q & [])]. Qed.

Lemma in_pk_app ps p x : In x (map pkind (ps ++ [p])) -> In x (map pkind ps) \/ x = pkind p.
Proof. rewrite map_app. intros H. apply in_app_or in H as [H|[H|[]]]; auto. Qed.

Section Init2.
Variable beh : hinfo -> logent -> N -> script.

Lemma init_params_CfInv2 ps : forall c w, CfInv2 c -> match init_params beh ps c w with ROk c' _ => CfInv2 c' | RFail _ _ => True end.
Proof.
  apply (init_params_cfg beh CfInv2).
  - intros c k m [HA HB]. split; cbn [cfg_recv_g cf_params cf_filter cf_recv].
    + intros q Hin. apply in_pk_app in Hin as [Hin|Hin]; [now apply HA|discriminate].
    + intros (q & Hin). apply in_pk_app in Hin as [Hin|Hin]; [|discriminate]. specialize (HB (ex_intro _ q Hin)). unfold cfg_set_recv.
      destruct (cf_recv c) as [|[ek|ek]|]; try contradiction; cbn [recvid_eqb]; exact I.
  - intros c k m q' [HA HB]. split; cbn [cfg_recv_t cf_params cf_filter cf_recv].
    + intros q0 Hin has Hm. apply in_pk_app in Hin as [Hin|Hin].
      * specialize (HB (ex_intro _ q0 Hin)). destruct (cf_recv c) as [|rv|]; [contradiction| |]; rewrite ca_and_matches in Hm; apply andb_true_iff in Hm as [Hm _]; eapply HA; eauto.
      * cbn [pkind] in Hin. inversion Hin; subst q0. destruct (cf_recv c) as [|rv|]; [exact Hm| |]; rewrite ca_and_matches in Hm; apply andb_true_iff in Hm as [_ Hm]; exact Hm.
    + intros _. unfold cfg_set_recv. destruct (cf_recv c) as [|rv|]; [exact I| |exact I]. destruct (recvid_eqb rv (RvTargeted k)); exact I.
  - intros c kd q' [HA HB]. split; cbn [cfg_fetch cf_params cf_filter cf_recv].
    + intros q0 Hin. apply in_pk_app in Hin as [Hin|Hin]; [now apply HA|discriminate].
    + intros (q0 & Hin). apply in_pk_app in Hin as [Hin|Hin]; [|discriminate]. exact (HB (ex_intro _ q0 Hin)).
  - intros c r [HA HB]. split; cbn [cfg_sender cf_params cf_filter cf_recv].
    + intros q0 Hin. apply in_pk_app in Hin as [Hin|Hin]; [now apply HA|discriminate].
    + intros (q0 & Hin). apply in_pk_app in Hin as [Hin|Hin]; [|discriminate]. exact (HB (ex_intro _ q0 Hin)).
Qed.

Lemma hv3_archs_register_handler w hk : hv3 (archs_register_handler w hk) = hv3 w.
Proof. apply hv3_hfix, hfix_archs_register_handler. Qed.

Lemma handler_entry_SInv sh w c w1 k w3 : DI w1 -> SInv w1 -> init_params beh (sh_params sh) cfg0 w = ROk c w1 ->
  handler_entry sh c w1 = inr (k, w3) -> SInv w3.
Proof.
  intros HD HS Ei Eh. pose proof (init_params_CfInv2 (sh_params sh) cfg0 w CfInv2_cfg0) as HC. rewrite Ei in HC. destruct HC as [HA HB].
  destruct (DI_parts _ HD) as (_ & ((S & _) & _) & _ & _).
  destruct (handler_entry_inv sh c w1 k w3 Eh) as (rv & acc & hs & Erv & _ & Eins & ->). rewrite Erv in HB.
  eapply SInv_le; [apply hs_le_hv3, hv3_archs_register_handler|].
  intros hk h Hl. unfold hlive in Hl. cbn [w_hs set_hreg] in Hl. destruct (key_eq_dec hk k) as [->|Hne].
  - erewrite insert_get_new in Hl by eauto. inversion Hl; subst h. split; cbn [pks h_params h_filter h_recv].
    + exact HA.
    + intros ek -> q Hin. exact (HB (ex_intro _ q Hin)).
  - erewrite insert_get_other in Hl by eauto. exact (HS hk h Hl).
Qed.

Lemma SInv_hs w' w : w_hs w' = w_hs w -> SInv w -> SInv w'.
Proof. intros E. apply SInv_le. now apply hs_le_hs. Qed.

Definition SInv_over : Layer beh DI.
Proof.
  apply (plain beh SInv); [|intros q w _ HS _; exact (SInv_le _ _ (hs_le_hv3 _ _ (hv3_flush beh q w)) HS)]. intros b w w' Hp HD HS _.
  destruct Hp as [w w' Hq|w tag k m _ _|w tag k m _ _|w0 tag kind k m _ _ _ _|sh w c w1 k w3 _ Ei Eh|w1 k h w2 Eh|k w w1 w2 info m _ _ _ _ _|k w w1 w2 info m _ _ _ _ _];
    try exact (SInv_hs _ _ eq_refl HS).
  - exact (SInv_hs _ _ (proj1 (quiet_fields _ _ Hq)) HS).
  - destruct kind; exact (SInv_hs _ w0 eq_refl HS).
  - exact (handler_entry_SInv sh w c w1 k w3 HD HS Ei Eh).
  - exact (SInv_le _ _ (hs_le_handler_exit w1 k h w2 Eh) HS).
  - unfold tev_exit_world. cbv zeta. destruct (e_kind info); exact (SInv_hs _ w2 eq_refl HS).
Defined.

Lemma SInv_comp_exit : comp_exit_ok SInv_over.
Proof.
  intros k w w1 dk w2 w3 w4 ci w5 ci' m _ _ _ _ _ _ _ _ _ _ _ _ _ _ _ _ _ HS _ _. apply (SInv_le _ w5); [|exact HS].
  eapply hs_le_trans; [apply hs_le_hs; reflexivity|]. eapply hs_le_trans; [apply hs_le_archs_remove_component|]. now apply hs_le_hs.
Qed.

Lemma hs_le_fresh_serial w : hs_le (snd (fresh_serial w)) w. Proof. now apply hs_le_hs. Qed.
End Init2.

Definition EI (w : world) : Prop := DI w /\ SInv w.
Lemma step_hv3 w w' : step w w' -> hv3 w' = hv3 w.
Proof. intros S. apply hv3_hfix, step_hfix, S. Qed.
Lemma SInv_stable : stable (fun _ => True) SInv.
Proof. intros w w' S _. exact (SInv_le _ _ (hs_le_hv3 _ _ (step_hv3 _ _ S))). Qed.
Lemma EI_kept : kept EI.
Proof. exact (kept_and DI _ SInv DI_kept (fun _ _ => I) stable_True SInv_stable). Qed.
Lemma SInv_world0 fuel p : SInv (world0 fuel p).
Proof. intros hk h H. unfold hlive, world0 in H. cbn [w_hs] in H. discriminate. Qed.

Definition EI_layer beh : Layer beh (fun _ => True) :=
  stack (DI_layer beh) (SInv_over beh) (fun w _ H => proj1 (DI_layer_J beh w) H).
Lemma EI_layer_J beh w : lJ (EI_layer beh) w <-> EI w.
Proof.
  split; intros [A B]; (split; [|exact B]); [exact (proj1 (DI_layer_J beh w) A)|exact (proj2 (DI_layer_J beh w) A)].
Qed.
Lemma EI_comp_exit beh : comp_exit_ok (EI_layer beh).
Proof. apply stack_comp_exit; [apply DI_comp_exit|apply SInv_comp_exit]. Qed.

Theorem reachable_EI beh fuel p ops : EI (fold_left (run_top_all beh) ops (world0 fuel p)).
Proof.
  exact (proj1 (EI_layer_J beh _) (history_keeps beh (EI_layer beh) ops _ (EI_comp_exit beh) (proj2 (EI_layer_J beh _) (conj (DI_world0 fuel p) (SInv_world0 fuel p))))).
Qed.

Definition ubf (f : option fail) : Prop := match f with Some (FUB _) => True | _ => False end.

(* handlers fail by panicking; what may be unchecked is the evaluation of their parameters and the look-up of the handler *)
Lemma no_ub_walks : walks (fun _ _ fl => ~ ubf fl) (fun _ _ _ => True) (fun f => ~ ubf (Some f)).
Proof. split; [split|..]; auto. Qed.

Lemma run_actions_no_ub acts : forall ps t fresh sent w, ~ ubf (snd (run_actions acts ps t fresh sent w)).
Proof. intros ps t fresh sent w. apply (body_rule _ _ _ no_ub_walks ps (fun _ _ _ _ => I) acts t fresh [] sent w). cbn. tauto. Qed.

Lemma params_ready_sl w w' ps loc : structureL w' = structureL w -> params_ready w ps loc -> params_ready w' ps loc.
Proof.
  intros Hs Hr p q c Hin Hq. destruct (Hr p q c Hin Hq) as [[Hnd Hg] Hx]. destruct (structureL_arch w w' Hs) as (_ & B & _).
  destruct (structureL_views w w' Hs) as (_ & _ & C). split.
  - split; [exact Hnd|]. intros j. apply (good_ext w); [apply B|apply Hg].
  - intros m Hp. destruct (Hx m Hp) as (a & k & vals & Ha & Hm & Hrow).
    destruct (arch_at_structure w w' C _ _ Ha) as (a' & Ha' & Ec & Er & _).
    assert (Hn : option_map rshape (nget (a_rows a') (snd loc)) = option_map rshape (nget (a_rows a) (snd loc))) by (rewrite <- !nget_map; now rewrite Er).
    rewrite Hrow in Hn. destruct (nget (a_rows a') (snd loc)) as [[k' vals']|] eqn:Hrow'; cbn in Hn; [|discriminate].
    exists a', k', vals'. split; [exact Ha'|]. split; [now rewrite (amatch_comps a a' q Ec)|exact Hrow'].
Qed.

Lemma access_amatch a q : ca_matches (arch_has a) (access_of q) = true -> amatch a q = true.
Proof. unfold amatch. rewrite access_matches_qmatch, <- arch_state_iff_qmatch. destruct (arch_state (arch_has a) q); auto. Qed.

Section Deliver.
Variable beh : hinfo -> logent -> N -> script.

Definition ready_list (w : world) (hl : list key) (loc : eloc) : Prop :=
  forall hk, In hk hl -> exists h, hlive w hk h /\ params_ready w (h_params h) loc.

Lemma ready_list_ready w hl loc : WInv w -> ready_list w hl loc -> ready (fun _ _ _ => True) (fun f => ~ ubf (Some f)) hl loc w.
Proof.
  intros HW Hrl hk w' Hin [Hs _]. destruct (Hrl hk Hin) as (h & Hl & Hr). destruct (structureL_arch w w' Hs) as (A & _ & _). destruct (structureL_views w w' Hs) as (_ & _ & C).
  unfold hlive in Hl. rewrite A, Hl. split; [repeat intro; exact I|]. intros f Hf.
  pose proof (param_views_ok w' (h_params h) loc (proj1 (WInv_structure _ _ C HW)) (params_ready_sl _ _ _ _ Hs Hr)) as Hp. rewrite Hf in Hp. destruct f; cbn in *; tauto.
Qed.

Theorem run_handlers_no_ub hl : forall w it tag loc sent, WInv w -> ready_list w hl loc ->
  ~ ubf (snd (run_handlers beh hl w it tag loc sent)).
Proof.
  intros w it tag loc sent HW Hrl. pose proof (handlers_rule _ _ _ no_ub_walks beh hl w it tag loc sent (ready_list_ready w hl loc HW Hrl) ltac:(cbn; tauto)) as H.
  destruct (run_handlers beh hl w it tag loc sent) as [[[[w1 ev] sent'] taken] fl]. destruct H as (w' & H & _). exact H.
Qed.

(* the handlers a delivery runs can all evaluate their parameters *)
Theorem delivered_ready w it loc : DI w -> SInv w ->
  (qi_targeted it = true -> sm_get (qi_target it) (w_ents w) = Some loc) -> ready_list w (delivered_to w it) loc.
Proof using beh.
  intros HD HS Hloc hk Hin. destruct (DI_parts _ HD) as ([[(Hst & _) _] _] & HH & _ & HX).
  apply (proj2 (delivered_to_exact w it HH)) in Hin. destruct (qi_targeted it).
  - destruct Hin as (loc' & a & h & ek & He & Ha & Hl & Hrv & _ & Hm). rewrite (Hloc eq_refl) in He. inversion He; subst loc'.
    exists h. split; [exact Hl|]. intros p q c Hp Hq. split; [exact (FI_CI w hk h p q c (proj1 HX) Hl Hp Hq)|].
    intros m ->. destruct (HS hk h Hl) as [P1 _].
    assert (Hpk : In (Some (true, q)) (pks h)) by (unfold pks; apply in_map_iff; exists (RRecvT m q c); split; [reflexivity|exact Hp]).
    pose proof (P1 q Hpk _ Hm) as Hma. destruct Hst as (_ & Hlk & _). destruct loc as [ai row]. destruct (Hlk _ _ _ (Hloc eq_refl)) as (a0 & vals & Ha0 & Hrow).
    cbn [fst snd] in *. rewrite Ha in Ha0. inversion Ha0; subst a0. exists a, (qi_target it), vals. split; [exact Ha|]. split; [now apply access_amatch|exact Hrow].
  - destruct Hin as (h & ek & Hl & Hrv & _). exists h. split; [exact Hl|]. intros p q c Hp Hq. split; [exact (FI_CI w hk h p q c (proj1 HX) Hl Hp Hq)|].
    intros m ->. destruct (HS hk h Hl) as [_ P2]. exfalso. apply (P2 ek Hrv q). unfold pks. apply in_map_iff. exists (RRecvT m q c). split; [reflexivity|exact Hp].
Qed.

Lemma deliver_finish_no_ub it w tag kind loc : DI w -> SInv w ->
  (targeted_kind kind = true -> sm_get (qi_target it) (w_ents w) = Some loc) ->
  (qi_targeted it = true -> sm_get (qi_target it) (w_ents w) = Some loc) ->
  ~ ubf (snd (deliver_finish beh it w tag kind (delivered_to w it) loc)).
Proof.
  intros HD HS Hk Hloc. destruct (DI_parts _ HD) as ([[HW _] _] & _).
  apply (deliver_finish_rule beh _ _ _ no_ub_walks) with (R := fun r => ~ ubf (snd r));
    [exact (ready_list_ready _ _ _ HW (delivered_ready w it loc HD HS Hloc))|cbn; tauto|intros w1 ev s fl H _ _ _ _; exact H|].
  intros w1 ev s _ [Hs _] _ _ _. destruct (structureL_views w w1 Hs) as (_ & _ & C). assert (HW1 : WInv w1) by (eapply WInv_structure; eauto).
  pose proof (builtin_effect_ok kind ev loc w1 (qi_target it) HW1) as Hb. rewrite (structure_ents _ _ C) in Hb. specialize (Hb Hk).
  destruct (builtin_effect kind ev loc w1) as [u w3|f w3]; cbn [fail_of snd]; [cbn; tauto|]. destruct Hb as [-> _]. cbn; tauto.
Qed.

(* a whole delivery: given that the event kind of the queued item is registered (the look-ups at
   world.rs:1045/1048/1056), nothing in it - archetype look-up, parameter evaluation of every handler,
   handler actions, the built-in effect - hits an unchecked failure *)
Theorem deliver_one_no_ub it w : DI w -> SInv w ->
  (if qi_targeted it then get_by_index (w_tev w) (qi_idx it) <> None
   else get_by_index (w_gev w) (qi_idx it) <> None /\ nget (w_glists w) (qi_idx it) <> None) ->
  ~ ubf (snd (deliver_one beh it w)).
Proof.
  intros HD HS Hreg. destruct (DI_parts _ HD) as ([[HW HG] _] & _). rewrite deliver_one_eq.
  destruct (qi_targeted it) eqn:Et.
  - destruct (get_by_index (w_tev w) (qi_idx it)) as [[k info]|]; [|congruence].
    destruct (sm_get (qi_target it) (w_ents w)) as [loc|] eqn:Hl; [|cbn; tauto].
    destruct HW as ((_ & Hlk & _) & _). destruct loc as [ai row]. destruct (Hlk _ _ _ Hl) as (a & vals & Ha & _). unfold arch_at in Ha. cbn [fst]. rewrite Ha.
    pose proof (deliver_finish_no_ub it w (e_tag info) (e_kind info) (ai, row) HD HS (fun _ => Hl) (fun _ => Hl)) as H.
    unfold delivered_to in H. rewrite Et, Hl in H. cbn [fst] in H. rewrite Ha in H. exact H.
  - destruct Hreg as [A B]. destruct (get_by_index (w_gev w) (qi_idx it)) as [[k info]|] eqn:Hg; [|congruence].
    destruct (nget (w_glists w) (qi_idx it)) as [l|] eqn:Hn; [|congruence].
    assert (Hk : targeted_kind (e_kind info) = true -> sm_get (qi_target it) (w_ents w) = Some (U32MAX, U32MAX)) by (intros X; rewrite (HG _ _ _ Hg) in X; discriminate).
    pose proof (deliver_finish_no_ub it w (e_tag info) (e_kind info) (U32MAX, U32MAX) HD HS Hk ltac:(congruence)) as H.
    unfold delivered_to, glist_of in H. rewrite Et, Hn in H. exact H.
Qed.
End Deliver.

Global Opaque EI_layer.
