(* ReserveW.v : reservations at world level (C03, C17).
     ReserveInv: the reservation cursor is where NextKeyIter stands after predicting as many ids
                 as are currently reserved, on the current entity map;
   it is kept by every reservation, by archetype moves (which re-point locations only) and is
   re-established by spawn_all; and the ids that were handed out are exactly the ids of the
   entities that spawn_all then creates, in the same order. *)
From Coq Require Import List NArith Bool Lia Sorted.
Import ListNotations.
Require Import EV.Base EV.ListN EV.Access EV.Query EV.SlotMap EV.Reserve EV.HList EV.Loop EV.World EV.StorageSpec EV.SlotMapGet
  EV.ArchProofs EV.WorldFrame EV.Store EV.Graph EV.Effects EV.Reach EV.RemoveComp EV.Member EV.Listen.
Open Scope N_scope.

Definition shape {V} (m : smap V) := sview (fun _ : V => tt) m.

Lemma shape_sget {V} (m m' : smap V) i : shape m' = shape m ->
  match sget (slots m') i, sget (slots m) i with
  | Some s', Some s => gen s' = gen s /\ link s' = link s /\ (val s' = None <-> val s = None)
  | None, None => True
  | _, _ => False
  end.
Proof.
  intros H. pose proof (sview_sget (fun _ : V => tt) m m' i H) as E.
  destruct (sget (slots m') i) as [s'|], (sget (slots m) i) as [s|]; cbn in E; try discriminate; [|exact I].
  injection E as Eg El Ev. repeat split; auto; intros X; rewrite X in Ev; [destruct (val s)|destruct (val s')]; cbn in Ev; congruence.
Qed.
Lemma shape_len {V} (m m' : smap V) : shape m' = shape m -> length (slots m') = length (slots m) /\ next_free m' = next_free m.
Proof.
  unfold shape, sview. intros H. injection H as Hm Hn. split; [|exact Hn].
  rewrite <- (map_length (fun s : slot V => (gen s, link s, option_map (fun _ => tt) (val s))) (slots m')), Hm. apply map_length.
Qed.

Lemma shape_supd {V} (l1 l2 : list (slot V)) i s1 s2 :
  map (fun s : slot V => (gen s, link s, option_map (fun _ => tt) (val s))) l1 = map (fun s : slot V => (gen s, link s, option_map (fun _ => tt) (val s))) l2 ->
  (gen s1, link s1, option_map (fun _ : V => tt) (val s1)) = (gen s2, link s2, option_map (fun _ : V => tt) (val s2)) ->
  map (fun s : slot V => (gen s, link s, option_map (fun _ => tt) (val s))) (supd l1 i s1) = map (fun s : slot V => (gen s, link s, option_map (fun _ => tt) (val s))) (supd l2 i s2).
Proof. intros Hm Hs. etransitivity; [apply map_nset|]. rewrite Hm, Hs. symmetry. exact (map_nset _ _ _ _). Qed.

(* the key an insertion returns and the shape it leaves depend on the shape of the map alone *)
Lemma insert_shape {V} (f g : key -> V) (m1 m2 : smap V) k a : shape m1 = shape m2 -> insert_with f m1 = Some (k, a) ->
  exists b, insert_with g m2 = Some (k, b) /\ shape a = shape b.
Proof.
  intros Hs Hi. destruct (shape_len m2 m1 Hs) as [Hl Hn]. pose proof (shape_sget m2 m1 (next_free m1) Hs) as Hg. unfold shape, sview in *. injection Hs as Hm _.
  unfold insert_with in *. rewrite <- Hn, <- Hl. destruct (sget (slots m1) (next_free m1)) as [s1|], (sget (slots m2) (next_free m1)) as [s2|]; try contradiction.
  - destruct Hg as (<- & <- & _). injection Hi as <- <-. eexists. split; [reflexivity|]. cbn [slots next_free]. f_equal. now apply shape_supd.
  - destruct (_ =? U32MAX); [discriminate|]. injection Hi as <- <-. eexists. split; [reflexivity|]. cbn [slots next_free]. now rewrite !map_app, Hm, Hn.
Qed.

Lemma inserts_shape {V} (f g : key -> V) n : forall (m1 m2 : smap V) ks a, shape m1 = shape m2 -> inserts n f m1 = Some (ks, a) ->
  exists b, inserts n g m2 = Some (ks, b) /\ shape a = shape b.
Proof.
  induction n as [|n IH]; intros m1 m2 ks a Hs Hi; cbn [inserts] in *; [inversion Hi; subst; eauto|].
  destruct (insert_with f m1) as [[k a1]|] eqn:E1; [|discriminate]. destruct (insert_shape f g m1 m2 k a1 Hs E1) as (b1 & E2 & Hs1). rewrite E2.
  destruct (inserts n f a1) as [[ks' a']|] eqn:E3; [|discriminate]. inversion Hi; subst; clear Hi.
  destruct (IH a1 b1 ks' a Hs1 E3) as (b & E4 & Hs2). rewrite E4. eauto.
Qed.

Lemma shape_nki {V} (m m' : smap V) i : shape m' = shape m -> nki_next i m' = nki_next i m.
Proof.
  intros Hs. destruct (shape_len m m' Hs) as [Hl _]. pose proof (shape_sget m m' i Hs) as Hg. unfold nki_next. rewrite Hl.
  destruct (sget (slots m') i) as [s'|], (sget (slots m) i) as [s|]; try contradiction; [|reflexivity]. destruct Hg as (-> & -> & _). reflexivity.
Qed.
Lemma shape_predict {V} (m m' : smap V) n : shape m' = shape m -> forall i, predict n i m' = predict n i m.
Proof.
  intros Hs. induction n as [|n IH]; intros i; cbn [predict]; [reflexivity|]. rewrite (shape_nki m m' i Hs).
  destruct (nki_next i m) as [[[k|] i']|]; try reflexivity. now rewrite IH.
Qed.
Lemma shape_nki0 {V} (m m' : smap V) : shape m' = shape m -> next_key_iter m' = next_key_iter m.
Proof. intros Hs. destruct (shape_len m m' Hs) as [Hl Hn]. unfold next_key_iter. now rewrite Hl, Hn. Qed.

Lemma predict_snoc {V} (m : smap V) n : forall i ks j k j', predict n i m = Some (ks, j) -> nki_next j m = Some (Some k, j') -> predict (S n) i m = Some (ks ++ [k], j').
Proof.
  induction n as [|n IH]; intros i ks j k j' Hp Hn.
  - cbn [predict] in Hp. inversion Hp; subst. cbn [predict]. now rewrite Hn.
  - cbn [predict] in Hp. destruct (nki_next i m) as [[[k0|] i0]|] eqn:E; try discriminate. destruct (predict n i0 m) as [[ks0 j0]|] eqn:E2; [|discriminate]. inversion Hp; subst.
    change (predict (S (S n)) i m) with (match nki_next i m with Some (Some k1, idx') => match predict (S n) idx' m with Some (ks1, i1) => Some (k1 :: ks1, i1) | None => None end | _ => None end).
    rewrite E. rewrite (IH i0 ks0 j k j' E2 Hn). reflexivity.
Qed.

Definition ReserveInv (w : world) : Prop :=
  exists ks, predict (N.to_nat (w_rcnt w)) (next_key_iter (w_ents w)) (w_ents w) = Some (ks, w_rcur w).
Definition reserved_ids (w : world) (ks : list key) : Prop :=
  predict (N.to_nat (w_rcnt w)) (next_key_iter (w_ents w)) (w_ents w) = Some (ks, w_rcur w).

(* Sender::spawn / World::spawn: one more id, the prediction continued *)
Lemma reserve_ReserveInv w ks : reserved_ids w ks ->
  match reserve w with
  | ROk k w' => reserved_ids w' (ks ++ [k])
  | RFail _ w' => w' = w
  end.
Proof.
  unfold reserved_ids, reserve. intros H. destruct (nki_next (w_rcur w) (w_ents w)) as [[[k|] i']|] eqn:E; try reflexivity.
  cbn [w_rcnt w_rcur w_ents set_res]. replace (N.to_nat (w_rcnt w + 1)) with (S (N.to_nat (w_rcnt w))) by lia. eapply predict_snoc; eauto.
Qed.

Lemma ReserveInv_shape w w' : shape (w_ents w') = shape (w_ents w) -> w_rcnt w' = w_rcnt w -> w_rcur w' = w_rcur w -> forall ks, reserved_ids w ks -> reserved_ids w' ks.
Proof. intros Hs Hc Hr ks H. unfold reserved_ids in *. now rewrite Hc, Hr, (shape_nki0 _ _ Hs), (shape_predict _ _ _ Hs). Qed.

(* materialisation along a run of insertions into a map of the same shape: each step inserts the key the run inserted,
   so it cannot fail; [P ks w]: [ks] are still to be inserted in [w] *)
Lemma spawn_all_n_run (P : list key -> world -> Prop) (f : key -> eloc) :
  (forall w k ks ents', SmInv (w_ents w) -> insert_with (fun _ => spawn_loc w) (w_ents w) = Some (k, ents') -> P (k :: ks) w ->
     P ks (set_ents (snd (arch_spawn w k)) ents')) ->
  forall n w m ks m', SmInv (w_ents w) -> shape m = shape (w_ents w) -> inserts n f m = Some (ks, m') -> P ks w ->
  exists w', spawn_all_n n w = ROk tt w' /\ SmInv (w_ents w') /\ shape (w_ents w') = shape m' /\ P [] w'.
Proof.
  intros Hs. induction n as [|n IH]; intros w m ks m' Hi Hm Hr HP; cbn [inserts] in Hr.
  - injection Hr as <- <-. now exists w.
  - destruct (insert_with f m) as [[k m1]|] eqn:E1; [|discriminate]. destruct (inserts n f m1) as [[ks' m2]|] eqn:E2; [|discriminate]. injection Hr as <- <-.
    destruct (insert_shape f (fun _ => spawn_loc w) m (w_ents w) k m1 Hm E1) as (b & Eb & Hb).
    rewrite spawn_all_n_S, Eb. apply (IH _ m1 ks' m2); [exact (insert_inv _ _ _ _ Hi Eb)|exact Hb|exact E2|exact (Hs w k ks' b Hi Eb HP)].
Qed.

(* under the cursor invariant the prediction is such a run, on the entity map itself *)
Lemma spawn_all_n_promised (P : list key -> world -> Prop) :
  (forall w k ks ents', SmInv (w_ents w) -> insert_with (fun _ => spawn_loc w) (w_ents w) = Some (k, ents') -> P (k :: ks) w ->
     P ks (set_ents (snd (arch_spawn w k)) ents')) ->
  forall n w ks i, SmInv (w_ents w) -> predict n (next_key_iter (w_ents w)) (w_ents w) = Some (ks, i) -> P ks w ->
  exists w', spawn_all_n n w = ROk tt w' /\ SmInv (w_ents w') /\ P [] w'.
Proof.
  intros Hs n w ks i Hi Hp HP. destruct (inserts_predicted (fun _ => spawn_loc w) n (w_ents w) ks i Hi Hp) as (m' & E & _).
  destruct (spawn_all_n_run P _ Hs n w (w_ents w) ks m' Hi eq_refl E HP) as (w' & A & B & _ & C). now exists w'.
Qed.

Lemma spawn_all_n_inserts n : forall w ks m', WInv w -> inserts n (fun _ => (0, 0)) (w_ents w) = Some (ks, m') ->
  exists w', spawn_all_n n w = ROk tt w' /\ WInv w' /\ shape (w_ents w') = shape m' /\
             (forall k, In k ks -> sm_get k (w_ents w') <> None /\ forall c, abs w' k c = None) /\ ext_by_spawn w w'.
Proof.
  intros w ks m' HW Hi.
  destruct (spawn_all_n_run (fun ks' w' => ext_by_spawn w w' /\
              forall k, In k ks -> In k ks' \/ sm_get k (w_ents w') <> None /\ forall c, abs w' k c = None)) with (2 := proj1 (proj1 HW)) (3 := eq_refl (shape (w_ents w))) (4 := Hi)
    as (w' & E & _ & Hsh & X & Hk); [|split; [now apply ext_by_spawn_refl|auto]|].
  - intros w1 k1 ks1 ents' _ Ei [X Hk]. destruct (spawn_one_ext w1 k1 ents' (proj1 X) Ei) as (X1 & Hnew & Hget).
    split; [eapply ext_by_spawn_trans; eauto|]. intros k Hin. destruct (Hk k Hin) as [[<-|H]|[L A]]; [right; now split|now left|right].
    destruct X1 as (_ & Hl & _). destruct (Hl k L) as [B C]. split; [cbn [w_ents set_ents] in *; congruence|]. intros c. now rewrite C.
  - exists w'. split; [exact E|]. split; [exact (proj1 X)|]. split; [exact Hsh|]. split; [|exact X]. intros k Hin. destruct (Hk k Hin) as [[]|H]. exact H.
Qed.

Lemma spawn_all_n_predicted n w ks i : WInv w -> predict n (next_key_iter (w_ents w)) (w_ents w) = Some (ks, i) ->
  exists w', spawn_all_n n w = ROk tt w' /\ WInv w' /\
             (forall k, In k ks -> sm_get k (w_ents w') <> None /\ forall c, abs w' k c = None) /\ ext_by_spawn w w'.
Proof.
  intros HW Hp. destruct (inserts_predicted (fun _ => (0, 0)) n (w_ents w) ks i (proj1 (proj1 HW)) Hp) as (m' & E & _).
  destruct (spawn_all_n_inserts n w ks m' HW E) as (w' & A & B & _ & C). now exists w'.
Qed.

(* C03 at world level: on a consistent world whose cursor is as the invariant says, spawn_all creates
   exactly the ids that were handed out, as component-less entities, leaves every existing entity alone,
   and leaves no reservation pending; it cannot fail, whatever the capacity *)
Theorem spawn_all_creates_reserved w ks : WInv w -> reserved_ids w ks ->
  exists w', spawn_all w = ROk tt w' /\ WInv w' /\
             (forall k, In k ks -> sm_get k (w_ents w') <> None /\ forall c, abs w' k c = None) /\
             ext_by_spawn w w' /\ w_rcnt w' = 0 /\ reserved_ids w' [].
Proof.
  intros HW Hr. destruct (spawn_all_n_predicted _ w ks (w_rcur w) HW Hr) as (w1 & Es & HW1 & Hks & Hext). unfold spawn_all. rewrite Es. cbn [rbind].
  eexists. split; [reflexivity|]. split; [eapply WInv_ext; [| | |exact HW1]; reflexivity|]. split; [exact Hks|]. split; [eapply ext_by_spawn_ext; [| | |exact Hext]; reflexivity|].
  split; [reflexivity|]. unfold reserved_ids. reflexivity.
Qed.

Theorem reserved_ids_are_created w ks :
  WInv w -> reserved_ids w ks -> N.of_nat (length (slots (w_ents w))) + w_rcnt w <= U32MAX ->
  exists w', spawn_all w = ROk tt w' /\ WInv w' /\
             (forall k, In k ks -> sm_get k (w_ents w') <> None /\ forall c, abs w' k c = None) /\
             ext_by_spawn w w' /\ w_rcnt w' = 0 /\ reserved_ids w' [].
Proof. intros HW Hr _. now apply spawn_all_creates_reserved. Qed.
