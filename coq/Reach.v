(* Reach.v : the storage invariant WInv (entity map <-> archetype rows, archetype graph, slab free
   list, by_components) is an invariant of event delivery, for every handler behaviour:
     - handler bodies keep the structure (WorldFrame.v), and WInv only looks at the structure;
     - each built-in effect keeps WInv (Effects.v);
     - hence one delivery, the unwinding, and the whole flush loop keep it;
   and while it holds no unchecked operation of the storage layer (archetype.rs, the FUB sites
   below 1000) can fail: the only failures a delivery can raise are panics and the registry
   look-ups of world.rs. *)
From Coq Require Import List NArith Bool Lia Sorted.
Import ListNotations.
Require Import EV.Base EV.ListN EV.Access EV.Query EV.QueryInd EV.SlotMap EV.Reserve EV.HList EV.Loop EV.World EV.SlotMapGet
  EV.ArchProofs EV.WorldFrame EV.Layer EV.Store EV.Register EV.Graph EV.Effects.
Open Scope N_scope.

Section Shape.
Variables (l l' : list sentry).
Hypothesis Hsh : map ashape l' = map ashape l.

Lemma shape_nlen : nlen l' = nlen l.
Proof. rewrite <- (nlen_map ashape l'), Hsh. apply nlen_map. Qed.
Lemma shape_nget i : option_map ashape (nget l' i) = option_map ashape (nget l i).
Proof. rewrite <- !nget_map. now rewrite Hsh. Qed.
Lemma shape_vac i nx : nget l i = Some (SVac nx) -> nget l' i = Some (SVac nx).
Proof.
  intros H. pose proof (shape_nget i) as E. rewrite H in E. destruct (nget l' i) as [[a|n]|]; cbn in E; try discriminate.
  inversion E; subst. reflexivity.
Qed.
Lemma shape_occ i a : nget l i = Some (SOcc a) -> exists a', nget l' i = Some (SOcc a') /\ ashape (SOcc a') = ashape (SOcc a).
Proof.
  intros H. pose proof (shape_nget i) as E. rewrite H in E. destruct (nget l' i) as [[a'|n]|]; cbn [option_map] in E; try discriminate.
  exists a'. split; [reflexivity|]. exact (f_equal (fun o => match o with Some x => x | None => ashape (SOcc a) end) E).
Qed.
Lemma shape_schain h c : schain l h c -> schain l' h c.
Proof.
  induction 1 as [|i nx rest Hg _ IH]; [rewrite <- shape_nlen; constructor|].
  econstructor; [apply shape_vac; exact Hg|exact IH].
Qed.
End Shape.

Lemma rshape_nget rows rows' : map rshape rows' = map rshape rows -> forall row e vals, nget rows row = Some (e, vals) ->
  exists vals', nget rows' row = Some (e, vals') /\ length vals' = length vals.
Proof.
  intros Hm row e vals H. assert (E : option_map rshape (nget rows' row) = option_map rshape (nget rows row)) by (rewrite <- !nget_map; now rewrite Hm).
  rewrite H in E. destruct (nget rows' row) as [[e' v']|]; cbn in E; [|discriminate]. inversion E; subst. eauto.
Qed.

Lemma arch_at_structure w w' : structure w' = structure w -> forall ai a, arch_at w ai = Some a ->
  exists a', arch_at w' ai = Some a' /\ a_comps a' = a_comps a /\ map rshape (a_rows a') = map rshape (a_rows a) /\
             a_ins a' = a_ins a /\ a_rem a' = a_rem a.
Proof.
  unfold structure. intros H ai a Ha. inversion H as [[Hcb He Hc Hsh Hn Hb]]. unfold arch_at, slab_get in *.
  destruct (nget (sl_entries (w_archs w)) ai) as [[a0|]|] eqn:Hg; try discriminate. inversion Ha; subst a0.
  destruct (shape_occ _ _ Hsh _ _ Hg) as (a' & Hg' & Es). rewrite Hg'. exists a'. split; [reflexivity|].
  cbn [ashape] in Es. inversion Es. auto.
Qed.

Theorem WInv_structure w w' : structure w' = structure w -> WInv w -> WInv w'.
Proof.
  intros H (Hst & Hg & H0). pose proof H as H'. unfold structure in H'. inversion H' as [[Hcby He Hc Hsh Hn Hb]].
  assert (Hfw := arch_at_structure w w' H). assert (Hbw := arch_at_structure w' w (eq_sym H)).
  split; [|split].
  - destruct Hst as (Hsm & Hl & Hr). unfold StoreInv. rewrite He. split; [exact Hsm|]. split.
    + intros e ai row Hge. destruct (Hl _ _ _ Hge) as (a & vals & Ha & Hn'). destruct (Hfw _ _ Ha) as (a' & Ha' & Hc' & Hr' & _).
      destruct (rshape_nget _ _ Hr' _ _ _ Hn') as (vals' & Hn'' & _). eauto.
    + intros ai a' row e vals' Ha' Hn'. destruct (Hbw _ _ Ha') as (a & Ha & Hc' & Hr' & _).
      destruct (rshape_nget _ _ Hr' _ _ _ Hn') as (vals & Hn'' & Hlen). destruct (Hr _ _ _ _ _ Ha Hn'') as [X Y]. split; [exact X|]. congruence.
  - destruct Hg as (Hs & Hb1 & Hb2 & Hi & Hr & Hso). unfold GraphInv. split; [|split; [|split; [|split; [|split]]]].
    + destruct Hs as (c & Hch & Hnd). exists c. split; [|exact Hnd]. rewrite Hn. eapply shape_schain; eauto.
    + intros ai a' Ha'. destruct (Hbw _ _ Ha') as (a & Ha & Hc' & _). unfold aby_lookup. rewrite Hb, <- Hc'. exact (Hb1 _ _ Ha).
    + intros cs ai Hl. unfold aby_lookup in Hl. rewrite Hb in Hl. destruct (Hb2 _ _ Hl) as (a & Ha & Hcs).
      destruct (Hfw _ _ Ha) as (a' & Ha' & Hc' & _). exists a'. split; [exact Ha'|congruence].
    + intros ai a' c d Ha' Hl. destruct (Hbw _ _ Ha') as (a & Ha & Hc' & _ & Hi' & _). rewrite <- Hi' in Hl.
      destruct (Hi _ _ _ _ Ha Hl) as (Hn' & b & Hb' & Hcb). rewrite <- Hc'. split; [exact Hn'|].
      destruct (Hfw _ _ Hb') as (b' & Hb'' & Hcb' & _). exists b'. split; [exact Hb''|congruence].
    + intros ai a' c d Ha' Hl. destruct (Hbw _ _ Ha') as (a & Ha & Hc' & _ & _ & Hr''). rewrite <- Hr'' in Hl.
      destruct (Hr _ _ _ _ Ha Hl) as (Hn' & b & Hb' & Hcb). rewrite <- Hc'. split; [exact Hn'|].
      destruct (Hfw _ _ Hb') as (b' & Hb'' & Hcb' & _). exists b'. split; [exact Hb''|congruence].
    + intros ai a' Ha'. destruct (Hbw _ _ Ha') as (a & Ha & Hc' & _). rewrite <- Hc'. eauto.
  - unfold aby_lookup in *. now rewrite Hb.
Qed.

Definition targeted_kind (k : ekind) : bool := match k with KInsert _ | KRemove _ | KDespawn => true | _ => false end.

Theorem builtin_effect_ok kind ev loc w e :
  WInv w -> (targeted_kind kind = true -> sm_get e (w_ents w) = Some loc) ->
  match builtin_effect kind ev loc w with
  | ROk _ w' => WInv w'
  | RFail f w' => f = FPanic 5 /\ WInv w'
  end.
Proof.
  intros HW Hloc. pose proof HW as (Hst & Hg & H0). destruct kind as [|c|c| |]; cbn [builtin_effect].
  - exact HW.
  - destruct loc as [sai srow]. cbn [fst]. specialize (Hloc eq_refl).
    destruct (insert_effect_ok w e sai srow c (ev_ser ev, ev_val ev) Hst Hg Hloc) as (w' & E & Hst' & Hg' & _ & _ & _ & Hmono).
    unfold cval in E. rewrite E.
    split; [exact Hst'|split; [exact Hg'|now apply Hmono]].
  - destruct loc as [sai srow]. cbn [fst]. specialize (Hloc eq_refl).
    destruct (remove_effect_ok w e sai srow c Hst Hg Hloc) as (w' & -> & Hst' & Hg' & _ & _ & _ & Hmono).
    split; [exact Hst'|split; [exact Hg'|now apply Hmono]].
  - pose proof (spawn_all_ok w HW) as H. destruct (spawn_all w) as [[] w'|f w']; [exact (proj1 H)|]. destruct H as [-> H]. split; [reflexivity|exact (proj1 H)].
  - pose proof (despawn_effect_ok w e loc HW (Hloc eq_refl)) as H.
    destruct (do (_, w2) <- spawn_all w; do (_, w3) <- remove_entity w2 loc; ROk tt (refresh_cursor w3)) as [[] w'|f w'].
    + exact (proj1 H).
    + destruct H as [-> H]. split; [reflexivity|exact (proj1 H)].
Qed.

(* C02: the built-in effects are the map operations *)
Theorem insert_effect_map w e loc c ev :
  WInv w -> sm_get e (w_ents w) = Some loc ->
  exists w', builtin_effect (KInsert c) ev loc w = ROk tt w' /\ WInv w' /\
    abs w' e c = Some (ev_ser ev, ev_val ev) /\ (forall c', c' <> c -> abs w' e c' = abs w e c') /\
    (forall k c', k <> e -> abs w' k c' = abs w k c') /\ same_dom (w_ents w) (w_ents w').
Proof.
  intros (Hst & Hg & H0) Hloc. destruct loc as [sai srow]. cbn [builtin_effect fst].
  destruct (insert_effect_ok w e sai srow c (ev_ser ev, ev_val ev) Hst Hg Hloc) as (w' & E & Hst' & Hg' & Hc & Ho & Hk & Hmono).
  unfold cval in E. exists w'. split; [exact E|]. split; [split; [exact Hst'|split; [exact Hg'|now apply Hmono]]|].
  split; [exact Hc|]. split; [exact Ho|]. split; [exact Hk|].
  pose proof Hst as (_ & Hl & _). destruct (Hl _ _ _ Hloc) as (sa & vals & Hsa & _).
  destruct (traverse_insert_ok w sai sa c Hst Hg Hsa) as (d & w1 & Et & _ & _ & _ & Hents1 & _).
  rewrite Et in E. cbn [rbind] in E. apply move_entity_dom in E. now rewrite Hents1 in E.
Qed.

Theorem remove_effect_map w e loc c ev :
  WInv w -> sm_get e (w_ents w) = Some loc ->
  exists w', builtin_effect (KRemove c) ev loc w = ROk tt w' /\ WInv w' /\
    abs w' e c = None /\ (forall c', c' <> c -> abs w' e c' = abs w e c') /\
    (forall k c', k <> e -> abs w' k c' = abs w k c') /\ same_dom (w_ents w) (w_ents w').
Proof.
  intros (Hst & Hg & H0) Hloc. destruct loc as [sai srow]. cbn [builtin_effect fst].
  destruct (remove_effect_ok w e sai srow c Hst Hg Hloc) as (w' & E & Hst' & Hg' & Hc & Ho & Hk & Hmono).
  exists w'. split; [exact E|]. split; [split; [exact Hst'|split; [exact Hg'|now apply Hmono]]|].
  split; [exact Hc|]. split; [exact Ho|]. split; [exact Hk|].
  pose proof Hst as (_ & Hl & _). destruct (Hl _ _ _ Hloc) as (sa & vals & Hsa & _).
  destruct (traverse_remove_ok w sai sa c Hst Hg Hsa) as (d & w1 & Et & _ & _ & _ & Hents1 & _).
  rewrite Et in E. cbn [rbind] in E. apply move_entity_dom in E. now rewrite Hents1 in E.
Qed.

Theorem despawn_effect_map w e loc ev :
  WInv w -> sm_get e (w_ents w) = Some loc ->
  match builtin_effect KDespawn ev loc w with
  | ROk _ w' => WInv w' /\ sm_get e (w_ents w') = None /\
                (forall k, k <> e -> sm_get k (w_ents w) <> None -> sm_get k (w_ents w') <> None /\ forall c, abs w' k c = abs w k c) /\
                (forall k, k <> e -> sm_get k (w_ents w) = None -> forall c, abs w' k c = None)
  | RFail f w' => f = FPanic 5 /\ ext_by_spawn w w'
  end.
Proof.
  intros HW Hloc. cbn [builtin_effect]. pose proof (despawn_effect_ok w e loc HW Hloc) as H.
  destruct (do (_, w2) <- spawn_all w; do (_, w3) <- remove_entity w2 loc; ROk tt (refresh_cursor w3)) as [[] w'|f w']; [|exact H].
  destruct H as (A & B & C & D & _). auto.
Qed.

Theorem spawn_effect_map w ev loc :
  WInv w ->
  match builtin_effect KSpawn ev loc w with
  | ROk _ w' => ext_by_spawn w w'
  | RFail f w' => f = FPanic 5 /\ ext_by_spawn w w'
  end.
Proof. intros HW. cbn [builtin_effect]. now apply spawn_all_ok. Qed.

(* global events never carry a targeted built-in meaning *)
Definition GevKinds (w : world) : Prop :=
  forall i k info, get_by_index (w_gev w) i = Some (k, info) -> targeted_kind (e_kind info) = false.
Lemma GevKinds_registries w w' : registries w' = registries w -> GevKinds w -> GevKinds w'.
Proof. unfold registries, GevKinds. intros H HK i k info. assert (E : w_gev w' = w_gev w) by now inversion H. rewrite E. apply HK. Qed.

Definition RInv (w : world) : Prop := WInv w /\ GevKinds w.

Lemma RInv_ext w w' : w_ents w' = w_ents w -> w_archs w' = w_archs w -> w_aby w' = w_aby w -> w_gev w' = w_gev w -> RInv w -> RInv w'.
Proof.
  intros He Ha Hb Hg [HW HK]. split; [eapply WInv_ext; eauto|]. unfold GevKinds in *. now rewrite Hg.
Qed.
Section WithBeh.
Variable beh : hinfo -> logent -> N -> script.

Lemma structure_ents w w' : structure w' = structure w -> w_ents w' = w_ents w.
Proof. unfold structure. intros H. now inversion H. Qed.

Theorem deliver_one_WInv it w : WInv w -> GevKinds w -> WInv (snd (fst (deliver_one beh it w))).
Proof.
  intros HW HK.
  assert (Hs : forall w1, quiet w w1 -> structure w1 = structure w) by (intros w1 [Hs _]; now apply structure_of_L).
  apply (sw_deliver_one beh _ (quiet_swalks w) (fun w' _ => WInv w')); [intros w1 _ Hx; exact (WInv_structure _ _ (Hs _ Hx) HW)| |apply quiet_refl].
  intros k info ev loc w1 Hr Hl _ Hx _. pose proof (builtin_effect_ok (e_kind info) ev loc w1 (qi_target it) (WInv_structure _ _ (Hs _ Hx) HW)) as Hb.
  rewrite (structure_ents _ _ (Hs _ Hx)) in Hb. unfold item_reg, item_loc in *.
  destruct (qi_targeted it); [|rewrite (HK _ _ _ Hr) in Hb]; specialize (Hb ltac:(first [discriminate|auto]));
    (destruct (builtin_effect (e_kind info) ev loc w1) as [[] w'|f0 w']; [exact Hb|exact (proj2 Hb)]).
Qed.

Lemma deliver_one_RInv it w : RInv w -> RInv (snd (fst (deliver_one beh it w))).
Proof.
  intros [HW HK]. split; [now apply deliver_one_WInv|exact (GevKinds_registries _ _ (deliver_one_keeps_registries beh it w) HK)].
Qed.

Lemma structure_unwind_queue q w : structure (unwind_queue q w) = structure w.
Proof. unfold unwind_queue. apply (fold_left_pres structure). intros. apply structure_of_L, sl_ev_drop. Qed.
Lemma unwind_RInv q w : RInv w -> RInv (res_world (spawn_all (unwind_queue q w))).
Proof.
  intros [HW HK]. pose proof (spawn_all_ok _ (WInv_structure _ _ (structure_unwind_queue q w) HW)) as Hs. split.
  - destruct (spawn_all (unwind_queue q w)) as [[] w3|f w3]; [exact (proj1 Hs)|exact (proj1 (proj2 Hs))].
  - eapply GevKinds_registries; [|exact HK]. rewrite spawn_all_keeps_registries. apply unwind_queue_keeps_registries.
Qed.

Theorem flush_WInv n q w tr s' oc :
  Loop.flush wst qitem (run_w beh) unwind_w n q (w, None) [] = Some (tr, s', oc) ->
  WInv w -> GevKinds w -> WInv (fst s') /\ GevKinds (fst s').
Proof.
  intros H HW HK. exact (flush_w_keeps beh RInv deliver_one_RInv unwind_RInv n q (w, None) [] tr s' oc H (conj HW HK)).
Qed.

Lemma flush_RInv q w : RInv w -> RInv (res_world (flush beh q w)).
Proof.
  intros HR. refine (proj1 (flush_rule beh RInv (fun _ _ => True) (fun _ => True) q w _ unwind_RInv _ I HR (fun _ _ => I))).
  - intros it w0 H0 _. split; [now apply deliver_one_RInv|auto].
  - intros w0. apply RInv_ext; reflexivity.
Qed.
End WithBeh.

Lemma gbi_insert {V} (f : key -> V) (m : smap V) k m' i k' v :
  insert_with f m = Some (k, m') -> get_by_index m' i = Some (k', v) -> v = f k \/ get_by_index m i = Some (k', v).
Proof.
  unfold insert_with, get_by_index. destruct (sget (slots m) (next_free m)) as [s|] eqn:Es.
  - intros H. inversion H; subst; clear H. cbn [slots]. destruct (N.eq_dec (next_free m) i) as [<-|Hne].
    + erewrite sget_supd_eq by eauto. cbn [val]. intros X. inversion X. now left.
    + rewrite sget_supd_neq by auto. now right.
  - destruct (N.of_nat (length (slots m)) =? U32MAX); [discriminate|]. intros H. inversion H; subst; clear H. cbn [slots].
    destruct (sget (slots m) i) as [s|] eqn:Ei.
    + rewrite (sget_app_old _ _ _ _ Ei). now right.
    + destruct (sget (slots m ++ [_]) i) as [s|] eqn:Ea; [|discriminate]. apply sget_app_inv in Ea as [Ea|[_ ->]]; [congruence|].
      cbn [val]. intros X. inversion X. now left.
Qed.

Lemma gev_entry_RInv w tag k m : RInv w -> insert_with (fun _ => mkE tag (gkind tag)) (w_gev w) = Some (k, m) -> RInv (gev_entry_world w tag k m).
Proof.
  intros [HW HK] Ei. split; [eapply WInv_ext; [| | |exact HW]; reflexivity|].
  intros i k' info Hg. cbn [gev_entry_world w_gev set_glists set_hreg set_gev] in Hg.
  destruct (gbi_insert _ _ _ _ _ _ _ Ei Hg) as [->|Hold]; [|eauto]. cbn [e_kind]. unfold gkind. now destruct (tag =? G_SPAWN).
Qed.

Lemma RInv_structure w w' : structure w' = structure w -> w_gev w' = w_gev w -> RInv w -> RInv w'.
Proof. intros Hs Hg [HW HK]. split; [eapply WInv_structure; eauto|]. unfold GevKinds in *. now rewrite Hg. Qed.

Lemma archs_register_handler_structure w hk : structure (archs_register_handler w hk) = structure w /\ w_gev (archs_register_handler w hk) = w_gev w.
Proof.
  split; [|now apply (archs_register_handler_frame w_gev)]. rewrite archs_register_handler_cases. destruct (sm_get hk (w_hs w)); [|reflexivity].
  exact (structure_reg_all h w).
Qed.


Lemma archs_remove_handler_structure w h : structure (archs_remove_handler w h) = structure w /\ w_gev (archs_remove_handler w h) = w_gev w.
Proof.
  unfold archs_remove_handler. split; [|reflexivity].
  unfold structure. cbn [w_ents w_comps w_archs w_aby set_archs sl_entries sl_next]. f_equal. f_equal. f_equal.
  rewrite map_map. apply map_ext. intros [a|n]; reflexivity.
Qed.


Lemma gbi_remove {V} (m : smap V) k v m' i k' v' :
  sm_remove k m = Some (v, m') -> get_by_index m' i = Some (k', v') -> get_by_index m i = Some (k', v').
Proof.
  unfold sm_remove, get_by_index. destruct (sget (slots m) (fst k)) as [s|] eqn:Es; [|discriminate].
  destruct (gen s =? snd k); [|discriminate]. destruct (val s) as [v0|]; [|discriminate].
  destruct (wrap_succ (gen s) =? 0); intros H; inversion H; subst; clear H; cbn [slots];
    (destruct (N.eq_dec (fst k) i) as [<-|Hne];
      [erewrite sget_supd_eq by eauto; cbn [val]; discriminate|now rewrite sget_supd_neq by auto]).
Qed.

Lemma gev_exit_RInv w k info m : RInv w -> sm_remove k (w_gev w) = Some (info, m) -> RInv (set_gev w m (aremove (e_tag info) (w_gby w))).
Proof. intros [HW HK] Er. split; [exact HW|]. intros i k' info' Hg. cbn [w_gev set_gev] in Hg. eapply HK. eapply gbi_remove; eauto. Qed.


Lemma handler_entry_structure sh c w1 k w3 : handler_entry sh c w1 = inr (k, w3) -> structure w3 = structure w1 /\ w_gev w3 = w_gev w1.
Proof.
  intros H. destruct (handler_entry_inv sh c w1 k w3 H) as (rv & acc & hs & _ & _ & _ & ->).
  match goal with |- structure (archs_register_handler ?W ?k) = _ /\ _ => destruct (archs_register_handler_structure W k) as [A B]; split; [rewrite A|rewrite B]; reflexivity end.
Qed.


Definition RInv_layer beh : Layer beh (fun _ => True).
Proof.
  apply (plain beh RInv); [|intros; now apply flush_RInv]. intros b w w' Hp _ HR _.
  destruct Hp as [w w' Hq|w tag k m _ Ei|w tag k m _ _|w0 tag kind k m _ _ _ _|sh w c w1 k w3 _ _ Eh|w1 k h w2 Eh|k w w1 w2 info m _ _ _ _ Er|k w w1 w2 info m _ _ _ _ _].
  - exact (RInv_structure _ _ (structure_of_L _ _ (proj1 Hq)) (proj1 (proj2 (proj2 (proj2 (quiet_fields _ _ Hq))))) HR).
  - exact (gev_entry_RInv w tag k m HR Ei).
  - apply (RInv_ext w); [..|exact HR]; reflexivity.
  - destruct kind; apply (RInv_ext w0); try reflexivity; exact HR.
  - destruct (handler_entry_structure sh c w1 k w3 Eh) as [Hs Hg]. exact (RInv_structure _ _ Hs Hg HR).
  - destruct (handlers_remove_inv w1 k h w2 Eh) as (hs & _ & ->).
    match goal with |- RInv (archs_remove_handler ?w2 h) => destruct (archs_remove_handler_structure w2 h) as [Hs Hg]; apply (RInv_structure w2 _ Hs Hg) end. exact HR.
  - exact (gev_exit_RInv w2 k info m HR Er).
  - unfold tev_exit_world. cbv zeta. destruct (e_kind info); exact HR.
Defined.

Lemma RInv_world0 fuel p : RInv (world0 fuel p).
Proof.
  split; [split; [apply StoreInv_world0|split]|].
  - unfold GraphInv, world0, arch_at, aby_lookup. cbn [w_archs w_aby]. split; [|split; [|split; [|split; [|split]]]].
    + exists []. split; [|constructor]. cbn [sl_entries sl_next]. change 1 with (nlen [SOcc empty_arch]). constructor.
    + intros ai a Ha. unfold slab_get in Ha. cbn [sl_entries nget] in Ha. destruct (ai =? 0) eqn:E; [|discriminate].
      apply N.eqb_eq in E. subst. inversion Ha; subst. reflexivity.
    + intros cs ai H. cbn in H. destruct cs; [|discriminate]. inversion H; subst. exists empty_arch. split; reflexivity.
    + intros ai a c d Ha Hl. unfold slab_get in Ha. cbn [sl_entries nget] in Ha. destruct (ai =? 0); [|discriminate]. inversion Ha; subst. discriminate.
    + intros ai a c d Ha Hl. unfold slab_get in Ha. cbn [sl_entries nget] in Ha. destruct (ai =? 0); [|discriminate]. inversion Ha; subst. discriminate.
    + intros ai a Ha. unfold slab_get in Ha. cbn [sl_entries nget] in Ha. destruct (ai =? 0); [|discriminate]. inversion Ha; subst. constructor.
  - reflexivity.
  - intros i k info H. discriminate.
Qed.

(* the calls the differential driver makes on the extracted model (ocaml/driver.ml), except
   remove_component (whose archetype removal is covered separately) *)
Inductive top :=
| TSpawn | TInsert (e : key) (ktag : N) | TRemove (e : key) (ktag : N) | TDespawn (e : key)
| TSend (gtag : N) | TSendTo (e : key) (ttag : N)
| TAddHandler (sh : hshape) | TRemoveHandler (k : key)
| TAddComponent (tag : N) | TAddGlobal (tag : N) | TAddTargeted (tag : N)
| TRemoveGlobal (k : key) | TRemoveTargeted (k : key).

Definition run_top (beh : hinfo -> logent -> N -> script) (w : world) (o : top) : world :=
  match o with
  | TSpawn => res_world (op_spawn beh w)
  | TInsert e k => res_world (op_insert beh e k w)
  | TRemove e k => res_world (op_remove beh e k w)
  | TDespawn e => res_world (op_despawn beh e w)
  | TSend g => res_world (op_send beh g w)
  | TSendTo e t => res_world (op_send_to beh e t w)
  | TAddHandler sh => res_world (add_handler beh sh w)
  | TRemoveHandler k => res_world (remove_handler beh k w)
  | TAddComponent t => res_world (add_component beh t w)
  | TAddGlobal t => res_world (add_global_event beh RFUEL t w)
  | TAddTargeted t => res_world (add_targeted_event beh t w)
  | TRemoveGlobal k => res_world (remove_global_event beh k w)
  | TRemoveTargeted k => res_world (remove_targeted_event beh k w)
  end.

Lemma run_top_keeps beh (L : Layer beh (fun _ => True)) w o : lJ L w -> lJ L (run_top beh w o).
Proof.
  intros HJ. destruct o; cbn [run_top].
  - exact (proj1 (tri_J beh L _ _ _ (op_spawn_tri beh L w HJ))).
  - exact (proj1 (tri_J beh L _ _ _ (op_insert_tri beh L e ktag w HJ))).
  - exact (proj1 (tri_J beh L _ _ _ (send_to_tri beh L (T_REMOVE ktag) e (mkEv 0 0 KEY_NULL) w HJ))).
  - exact (proj1 (tri_J beh L _ _ _ (send_to_tri beh L T_DESPAWN e (mkEv 0 0 KEY_NULL) w HJ))).
  - exact (proj1 (tri_J beh L _ _ _ (op_send_tri beh L gtag w HJ))).
  - exact (proj1 (tri_J beh L _ _ _ (op_send_to_tri beh L e ttag w HJ))).
  - exact (proj1 (tri_J beh L _ _ _ (add_handler_tri beh L sh w HJ))).
  - exact (proj1 (remove_handler_keeps beh L k w HJ)).
  - exact (proj1 (tri_J beh L _ _ _ (add_component_tri beh L tag w HJ))).
  - exact (proj1 (tri_J beh L _ _ _ (add_global_event_tri beh L tag w HJ))).
  - exact (proj1 (tri_J beh L _ _ _ (add_targeted_event_tri beh L tag w HJ))).
  - exact (proj1 (remove_global_event_keeps beh L k w HJ)).
  - exact (proj1 (remove_targeted_event_keeps beh L k w HJ)).
Qed.

Section Ops3.
Variable beh : hinfo -> logent -> N -> script.
Lemma remove_tevents_RInv ks : forall w, RInv w -> RInv (res_world (remove_tevents beh ks w)).
Proof. intros w HR. exact (proj1 (remove_tevents_keeps beh (RInv_layer beh) ks w HR)). Qed.
End Ops3.

(* C17 / C02 / C12 on the model, for every handler behaviour, every sequence of calls (whether
   they succeed, panic in a handler or run out of slots), every fuel and panic schedule:
   the entity map and the archetype rows describe each other, every row has one value per
   column, the archetype graph / by_components / slab free list are consistent *)
Theorem reachable_RInv beh fuel p ops : RInv (fold_left (run_top beh) ops (world0 fuel p)).
Proof.
  apply fold_left_invariant; [apply RInv_world0|]. intros w o. apply (run_top_keeps beh (RInv_layer beh)).
Qed.
