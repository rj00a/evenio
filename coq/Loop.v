(* Loop.v : the event loop of src/world.rs:958-1199 as a stack machine, generic in the
   state and in what one delivery does.
   [run e st] = run the handlers of [e] in order until one takes it, then apply the built-in
   effect; it returns the events sent (in send order), the new state, and whether a handler
   panicked (unwinding).  The mechanism: the queue is a Vec used as a stack (top at the END);
   the events pushed during one delivery are the segment [events_before..], which is reversed
   before the next pop.  On unwinding, [unwind] (EventDropper::drop) receives what is left. *)
From Coq Require Import List Lia PeanoNat Arith Permutation.
Import ListNotations.

Section Loop.
Variables (St Ev : Type).
Variable run : Ev -> St -> list Ev * St * bool.
Variable unwind : list Ev -> St -> St.

Inductive outcome := Finished | Aborted.

Definition step (q : list Ev) (st : St) : option (Ev * list Ev * St * bool) :=
  match rev q with
  | [] => None
  | e :: _ =>
      let rest := removelast q in
      let before := length rest in
      let '(sent, st', ab) := run e st in
      let q1 := rest ++ sent in                                  (* pushes *)
      let q2 := firstn before q1 ++ rev (skipn before q1) in     (* reverse pushed segment *)
      Some (e, (if ab then q1 else q2), st', ab)
  end.

Fixpoint flush (fuel : nat) (q : list Ev) (st : St) (tr : list Ev) : option (list Ev * St * outcome) :=
  match fuel with
  | 0 => None
  | S f => match step q st with
           | None => Some (tr, st, Finished)
           | Some (e, q', st', ab) =>
               if ab then Some (tr ++ [e], unwind q' st', Aborted)
               else flush f q' st' (tr ++ [e])
           end
  end.

(* spec: depth-first, first-sent-first; only for deliveries without unwinding *)
Inductive deliver : Ev -> St -> list Ev -> St -> Prop :=
| D e st sent st1 tr st2 : run e st = (sent, st1, false) -> deliver_list sent st1 tr st2 -> deliver e st (e :: tr) st2
with deliver_list : list Ev -> St -> list Ev -> St -> Prop :=
| DN st : deliver_list [] st [] st
| DC e es st tr1 st1 tr2 st2 : deliver e st tr1 st1 -> deliver_list es st1 tr2 st2 -> deliver_list (e :: es) st (tr1 ++ tr2) st2.
Scheme deliver_ind' := Minimality for deliver Sort Prop
with deliver_list_ind' := Minimality for deliver_list Sort Prop.
Combined Scheme deliver_mutind from deliver_ind', deliver_list_ind'.

Lemma step_snoc rest e st : step (rest ++ [e]) st =
  let '(sent, st', ab) := run e st in Some (e, (if ab then rest ++ sent else rest ++ rev sent), st', ab).
Proof.
  unfold step. rewrite rev_app_distr. cbn [rev app]. rewrite removelast_last.
  destruct (run e st) as [[sent st'] ab]. destruct ab; [reflexivity|]. f_equal. f_equal. f_equal. f_equal.
  rewrite firstn_app, firstn_all, Nat.sub_diag. cbn [firstn]. rewrite app_nil_r.
  rewrite skipn_app, skipn_all, Nat.sub_diag. reflexivity.
Qed.

Lemma deliver_list_app es1 : forall es2 st tr1 st1 tr2 st2,
  deliver_list es1 st tr1 st1 -> deliver_list es2 st1 tr2 st2 -> deliver_list (es1 ++ es2) st (tr1 ++ tr2) st2.
Proof.
  induction es1 as [|e es1 IH]; intros es2 st tr1 st1 tr2 st2 H1 H2.
  - inversion H1; subst. exact H2.
  - inversion H1; subst. cbn. rewrite <- app_assoc. econstructor; eauto.
Qed.
Lemma deliver_list_split es1 : forall es2 st tr st2,
  deliver_list (es1 ++ es2) st tr st2 ->
  exists tr1 st1 tr2, deliver_list es1 st tr1 st1 /\ deliver_list es2 st1 tr2 st2 /\ tr = tr1 ++ tr2.
Proof.
  induction es1 as [|e es1 IH]; intros es2 st tr st2 H.
  - exists [], st, tr. split; [constructor|split; [exact H|reflexivity]].
  - cbn in H. inversion H; subst.
    match goal with Hd : deliver_list (es1 ++ es2) _ _ _ |- _ => destruct (IH _ _ _ _ Hd) as (ta & sa & tb & Ha & Hb & ->) end.
    exists (tr1 ++ ta), sa, tb. split; [econstructor; eauto|split; [exact Hb|now rewrite app_assoc]].
Qed.

(* completeness: a terminating depth-first delivery is what the stack machine computes *)
Lemma flush_complete_mut :
  (forall e st tr st', deliver e st tr st' -> forall rest acc, exists n,
      forall m, flush (n + m) (rest ++ [e]) st acc = flush m rest st' (acc ++ tr)) /\
  (forall es st tr st', deliver_list es st tr st' -> forall rest acc, exists n,
      forall m, flush (n + m) (rest ++ rev es) st acc = flush m rest st' (acc ++ tr)).
Proof.
  apply deliver_mutind.
  - intros e st sent st1 tr st2 Hrun _ IH rest acc.
    destruct (IH rest (acc ++ [e])) as [n Hn]. exists (S n). intros m.
    cbn [plus flush]. rewrite step_snoc, Hrun. rewrite Hn. now rewrite <- app_assoc.
  - intros st rest acc. exists 0. intros m. cbn. now rewrite !app_nil_r.
  - intros e es st tr1 st1 tr2 st2 _ IH1 _ IH2 rest acc.
    destruct (IH1 (rest ++ rev es) acc) as [n1 H1].
    destruct (IH2 rest (acc ++ tr1)) as [n2 H2].
    exists (n1 + n2). intros m. cbn [rev]. rewrite app_assoc, <- Nat.add_assoc, H1, H2.
    now rewrite app_assoc.
Qed.

Theorem flush_complete e st tr st' :
  deliver e st tr st' -> exists n, forall m, flush (n + S m) [e] st [] = Some (tr, st', Finished).
Proof.
  intros H. destruct (proj1 flush_complete_mut _ _ _ _ H [] []) as [n Hn].
  exists n. intros m. cbn [app] in Hn. rewrite Hn. reflexivity.
Qed.

(* soundness: whatever the stack machine returns normally is a depth-first delivery of the
   whole stack (top first), and the queue is empty when it returns *)
Theorem flush_sound : forall n q st acc tr st',
  flush n q st acc = Some (tr, st', Finished) ->
  exists tr0, tr = acc ++ tr0 /\ deliver_list (rev q) st tr0 st'.
Proof.
  induction n as [|n IH]; intros q st acc tr st' H; [discriminate|].
  cbn [flush] in H. destruct q as [|e r _] using rev_ind.
  - inversion H; subst. exists []. split; [now rewrite app_nil_r|constructor].
  - rewrite step_snoc in H. destruct (run e st) as [[sent st1] ab] eqn:Hrun.
    destruct ab; [discriminate|].
    apply IH in H. destruct H as (tr0 & -> & Hd).
    rewrite rev_app_distr, rev_involutive in Hd.
    apply deliver_list_split in Hd. destruct Hd as (ta & sa & tb & Ha & Hb & ->).
    exists (e :: ta ++ tb). split; [now rewrite <- app_assoc|]. rewrite rev_app_distr.
    change (deliver_list (e :: rev r) st ((e :: ta) ++ tb) st'). econstructor; [econstructor; eauto|exact Hb].
Qed.

(* on unwinding, the dropper receives exactly: the untouched part of the queue followed by
   what the panicking delivery had pushed, in push order *)
Theorem flush_abort_queue : forall n q st acc tr st',
  flush n q st acc = Some (tr, st', Aborted) ->
  exists rest e sent st1 st0, run e st0 = (sent, st1, true) /\ st' = unwind (rest ++ sent) st1.
Proof.
  induction n as [|n IH]; intros q st acc tr st' H; [discriminate|].
  cbn [flush] in H. destruct q as [|e r _] using rev_ind; [discriminate|].
  rewrite step_snoc in H. destruct (run e st) as [[sent st1] ab] eqn:Hrun.
  destruct ab; [|eapply IH; eauto]. inversion H; subst. exists r, e, sent, st1, st. auto.
Qed.

(* ghost-instrumented machine: additionally returns everything that was sent during the run
   and what was handed to [unwind] *)
Fixpoint flushG (fuel : nat) (q : list Ev) (st : St) : option (list Ev * St * outcome * list Ev * list Ev) :=
  match fuel with
  | 0 => None
  | S f => match step q st with
           | None => Some ([], st, Finished, [], [])
           | Some (e, q', st', ab) =>
               let sent := fst (fst (run e st)) in
               if ab then Some ([e], unwind q' st', Aborted, sent, q')
               else match flushG f q' st' with
                    | Some (tr, st2, oc, allsent, lft) => Some (e :: tr, st2, oc, sent ++ allsent, lft)
                    | None => None
                    end
           end
  end.

Lemma flushG_flush : forall n q st acc,
  flush n q st acc = match flushG n q st with
                     | Some (tr, st', oc, _, _) => Some (acc ++ tr, st', oc)
                     | None => None end.
Proof.
  induction n as [|n IH]; intros q st acc; [reflexivity|]. cbn [flush flushG].
  destruct (step q st) as [[[[e q'] st'] ab]|]; [|now rewrite app_nil_r].
  destruct ab; [reflexivity|]. rewrite IH.
  destruct (flushG n q' st') as [[[[[tr st2] oc] al] lf]|]; [|reflexivity].
  now rewrite <- app_assoc.
Qed.

Theorem flush_conservation : forall n q st tr st' oc allsent lft,
  flushG n q st = Some (tr, st', oc, allsent, lft) ->
  Permutation (q ++ allsent) (tr ++ lft) /\ (oc = Finished -> lft = []).
Proof.
  induction n as [|n IH]; intros q st tr st' oc allsent lft H; [discriminate|].
  cbn [flushG] in H. destruct q as [|e r _] using rev_ind.
  - inversion H; subst. split; [constructor|reflexivity].
  - rewrite step_snoc in H. destruct (run e st) as [[sent st1] ab] eqn:Hrun. rewrite ?Hrun in H. cbn [fst] in H.
    destruct ab.
    + inversion H; subst. split; [|discriminate].
      rewrite <- !app_assoc. cbn [app]. apply Permutation_sym, Permutation_middle.
    + destruct (flushG n (r ++ rev sent) st1) as [[[[[tr2 st2] oc2] al] lf]|] eqn:Hg; [|discriminate].
      inversion H; subst. destruct (IH _ _ _ _ _ _ _ Hg) as [HP HF]. split; [|exact HF].
      rewrite <- !app_assoc. cbn [app].
      apply Permutation_trans with (e :: r ++ sent ++ al); [apply Permutation_sym, Permutation_middle|].
      constructor. rewrite <- app_assoc in HP.
      apply Permutation_trans with (r ++ rev sent ++ al); [|exact HP].
      apply Permutation_app_head, Permutation_app_tail, Permutation_rev.
Qed.

(* with pairwise distinct event identities: each event that was queued or sent is delivered
   exactly once or handed to the dropper exactly once, never both *)
Corollary flush_exactly_once n q st tr st' oc allsent lft :
  flushG n q st = Some (tr, st', oc, allsent, lft) -> NoDup (q ++ allsent) -> NoDup (tr ++ lft).
Proof. intros H Hnd. eapply Permutation_NoDup; [apply (proj1 (flush_conservation _ _ _ _ _ _ _ _ H))|exact Hnd]. Qed.

(* an invariant [I] of state, queue and trace kept by every delivery that does not abort, and what an aborting delivery
   followed by the unwinding establishes ([X]): a run ends in [I] with the queue empty, or in [X] *)
Lemma flush_exit (I : St -> list Ev -> list Ev -> Prop) (X : St -> list Ev -> Prop) :
  (forall rest e st tr, I st (rest ++ [e]) tr ->
     match run e st with
     | (sent, st1, false) => I st1 (rest ++ rev sent) (tr ++ [e])
     | (sent, st1, true) => X (unwind (rest ++ sent) st1) (tr ++ [e])
     end) ->
  forall n q st acc tr st' oc, flush n q st acc = Some (tr, st', oc) -> I st q acc ->
    match oc with Finished => I st' [] tr | Aborted => X st' tr end.
Proof.
  intros Hrun. induction n as [|n IH]; intros q st acc tr st' oc H HI; [discriminate|].
  cbn [flush] in H. destruct q as [|e r _] using rev_ind; [inversion H; subst; exact HI|].
  rewrite step_snoc in H. specialize (Hrun r e st acc HI). destruct (run e st) as [[sent st1] ab].
  destruct ab; [inversion H; subst; exact Hrun|exact (IH _ _ _ _ _ _ H Hrun)].
Qed.

Theorem flush_invariant_queue (P : St -> Prop) (Q : St -> Ev -> Prop) :
  (forall e st, P st -> Q st e ->
     P (snd (fst (run e st))) /\ (forall x, In x (fst (fst (run e st))) -> Q (snd (fst (run e st))) x) /\
     (forall x, Q st x -> Q (snd (fst (run e st))) x)) ->
  (forall q st, P st -> P (unwind q st)) ->
  forall n q st acc tr st' oc, flush n q st acc = Some (tr, st', oc) -> P st -> (forall x, In x q -> Q st x) -> P st'.
Proof.
  intros Hrun Hunw n q st acc tr st' oc H HP HQ.
  assert (G : match oc with Finished => P st' /\ (forall x, In x [] -> Q st' x) | Aborted => P st' end).
  { apply (flush_exit (fun s q0 _ => P s /\ forall x, In x q0 -> Q s x) (fun s _ => P s)) with (n := n) (q := q) (st := st) (acc := acc) (tr := tr);
      [|exact H|exact (conj HP HQ)].
    intros rest e s tr0 [Ps Qs]. destruct (Hrun e s Ps (Qs e (in_elt e rest []))) as (P1 & Q1 & Q2).
    destruct (run e s) as [[sent s1] ab]. cbn [fst snd] in *. destruct ab; [now apply Hunw|]. split; [exact P1|].
    intros x Hin. apply in_app_or in Hin as [Hin|Hin]; [apply Q2, Qs, in_or_app; now left|apply Q1; now apply in_rev]. }
  destruct oc; [exact (proj1 G)|exact G].
Qed.

Theorem flush_invariant (P : St -> Prop) :
  (forall e st, P st -> P (snd (fst (run e st)))) -> (forall q st, P st -> P (unwind q st)) ->
  forall n q st acc tr st' oc, flush n q st acc = Some (tr, st', oc) -> P st -> P st'.
Proof.
  intros Hr Hu n q st acc tr st' oc H HP.
  apply (flush_invariant_queue P (fun _ _ => True)) with (n := n) (q := q) (st := st) (acc := acc) (tr := tr) (oc := oc); auto.
Qed.
(* an observation of the state that no delivery and no unwinding changes is unchanged by the
   whole run *)
Theorem flush_preserves {T} (pi : St -> T) :
  (forall e st, pi (snd (fst (run e st))) = pi st) -> (forall q st, pi (unwind q st) = pi st) ->
  forall n q st acc tr st' oc, flush n q st acc = Some (tr, st', oc) -> pi st' = pi st.
Proof.
  intros Hr Hu n q st acc tr st' oc H.
  refine (flush_invariant (fun s => pi s = pi st) _ _ n q st acc tr st' oc H eq_refl); intros x s E; [rewrite Hr|rewrite Hu]; exact E.
Qed.
End Loop.
Arguments flush_exit {St Ev}.
