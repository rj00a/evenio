(* ArchProofs.v : the row merge of move_entity, cached transitions after a type removal,
   listener tables and fetcher caches - function-level theorems on the model. *)
From Coq Require Import List NArith Bool Lia Permutation Sorted.
Import ListNotations.
Require Import EV.Base EV.ListN EV.Access EV.Query EV.SlotMap EV.Reserve EV.HList EV.Loop EV.World.
Open Scope N_scope.

(* merge_row: archetype.rs:390-475 *)
Definition new_pair (nw : option (N * cval)) : list (N * cval) := match nw with Some p => [p] | None => [] end.

(* C02 / C12: whatever the walk over the two sorted column lists returns, the tagged values of
   the destination row together with the destroyed ones are exactly the tagged values of the
   source row together with the inserted one - nothing lost, nothing duplicated, nothing
   attributed to another component *)
Lemma bind_pair {A B C} (o : option (A * B)) (g : A -> B -> C) y :
  match o with Some (r, k) => Some (g r k) | None => None end = Some y -> exists r k, o = Some (r, k) /\ y = g r k.
Proof. destruct o as [[r k]|]; [intros [= <-]; eauto|discriminate]. Qed.

Theorem merge_row_conserves : forall fuel sc sv dc nw dvals killed,
  length sv = length sc ->
  merge_row fuel sc sv dc nw = Some (dvals, killed) ->
  length dvals = length dc /\
  Permutation (combine dc dvals ++ killed) (combine sc sv ++ new_pair nw).
Proof.
  induction fuel as [|f IH]; intros sc sv dc nw dvals killed Hlen H; [discriminate|].
  cbn [merge_row] in H.
  destruct sc as [|s sc'], dc as [|d dc'].
  - destruct nw; [discriminate|]. inversion H; subst. destruct sv; [|discriminate]. cbn. split; [reflexivity|constructor].
  - destruct nw as [[c v]|]; [|discriminate]. destruct (N.eqb_spec c d) as [->|_]; [|discriminate].
    apply bind_pair in H as (r & k & Hr & [= -> ->]).
    destruct (IH _ _ _ _ _ _ Hlen Hr) as [Hl Hp]. destruct sv; [|discriminate]. cbn in *. split; [now rewrite Hl|].
    rewrite ?app_nil_r in Hp. constructor. exact Hp.
  - destruct sv as [|v sv']; [discriminate|]. injection Hlen as Hlen'.
    apply bind_pair in H as (r & k & Hr & [= -> ->]). destruct (IH _ _ _ _ _ _ Hlen' Hr) as [Hl Hp].
    destruct r; [|discriminate]. cbn in *. split; [reflexivity|]. constructor. exact Hp.
  - destruct sv as [|v sv']; [discriminate|]. injection Hlen as Hlen'.
    destruct (s <? d).
    + apply bind_pair in H as (r & k & Hr & [= -> ->]).
      destruct (IH _ _ _ _ _ _ Hlen' Hr) as [Hl Hp]. split; [exact Hl|]. cbn [combine app].
      apply Permutation_trans with ((s, v) :: combine (d :: dc') r ++ k); [apply Permutation_sym, Permutation_middle|].
      constructor. exact Hp.
    + destruct (N.eqb_spec s d) as [->|_].
      * apply bind_pair in H as (r & k & Hr & [= -> ->]).
        destruct (IH _ _ _ _ _ _ Hlen' Hr) as [Hl Hp]. cbn. split; [now rewrite Hl|]. constructor. exact Hp.
      * destruct nw as [[c nv]|]; [|discriminate]. destruct (N.eqb_spec c d) as [->|_]; [|discriminate].
        apply bind_pair in H as (r & k & Hr & [= -> ->]).
        destruct (IH (s :: sc') (v :: sv') _ _ _ _ (f_equal S Hlen') Hr) as [Hl Hp]. cbn [length]. split; [now rewrite Hl|].
        cbn [combine app new_pair] in *. rewrite ?app_nil_r in Hp.
        apply Permutation_trans with ((d, nv) :: (s, v) :: combine sc' sv'); [constructor; exact Hp|].
        apply Permutation_trans with ((s, v) :: (d, nv) :: combine sc' sv'); [constructor|].
        constructor. apply Permutation_cons_app. now rewrite app_nil_r.
Qed.


Lemma ninsert_in {A} (l : list A) : forall i h x, In x (ninsert l i h) <-> x = h \/ In x l.
Proof.
  induction l as [|y t IH]; intros i h x; cbn [ninsert].
  - split; [intros [<-|[]]|intros [->|[]]]; now left.
  - destruct (i =? 0); cbn [In]; [split; [intros [<-|H]|intros [->|H]]; auto|rewrite IH; tauto].
Qed.
Lemma hl_insert_in {H} (l : hlist H) h p x : In x (hl_entries (hl_insert l h p)) <-> x = h \/ In x (hl_entries l).
Proof.
  unfold hl_insert. destruct p; cbn [hl_entries]; [apply ninsert_in|apply ninsert_in|].
  rewrite in_app_iff. split; [intros [Hx|[<-|[]]]|intros [->|Hx]]; auto using in_eq.
Qed.

Lemma alookup_ainsert_eq {V} k (v : V) l : alookup k (ainsert k v l) = Some v.
Proof.
  induction l as [|[k' v'] t IH]; cbn; [now rewrite N.eqb_refl|].
  destruct (k <? k') eqn:E1; cbn; [now rewrite N.eqb_refl|].
  destruct (k =? k') eqn:E2; cbn; [now rewrite N.eqb_refl|]. now rewrite E2.
Qed.
Lemma alookup_ainsert_neq {V} k k0 (v : V) l : k0 <> k -> alookup k0 (ainsert k v l) = alookup k0 l.
Proof.
  intros Hne. apply N.eqb_neq in Hne. induction l as [|[k' v'] t IH]; cbn; [now rewrite Hne|].
  destruct (k <? k'); cbn; [now rewrite Hne|]. destruct (N.eqb_spec k k') as [<-|_]; cbn; [now rewrite Hne|].
  destruct (k0 =? k'); [reflexivity|exact IH].
Qed.
Lemma alookup_aremove_eq {V} k (l : list (N * V)) : alookup k (aremove k l) = None.
Proof.
  unfold aremove. induction l as [|[k' v'] t IH]; cbn; [reflexivity|].
  destruct (k' =? k) eqn:E; cbn; [exact IH|]. rewrite N.eqb_sym, E. exact IH.
Qed.

Lemma alookup_aremove_neq {V} k c (l : list (N * V)) : c <> k -> alookup c (aremove k l) = alookup c l.
Proof.
  intros Hne. unfold aremove. induction l as [|[k' v] l IH]; cbn [filter alookup fst]; [reflexivity|].
  destruct (k' =? k) eqn:E; cbn [negb alookup].
  - apply N.eqb_eq in E. subst k'. replace (c =? k) with false by (symmetry; now apply N.eqb_neq). exact IH.
  - destruct (c =? k'); [reflexivity|exact IH].
Qed.

Definition listeners_of (a : arch) (ev : N) : list key :=
  match alookup ev (a_listeners a) with Some l => hl_entries l | None => [] end.

Lemma listeners_insert_in ls ev h p x :
  In x (match alookup ev (listeners_insert ls ev h p) with Some l => hl_entries l | None => [] end) <->
  x = h \/ In x (match alookup ev ls with Some l => hl_entries l | None => [] end).
Proof. unfold listeners_insert. destruct (alookup ev ls); rewrite alookup_ainsert_eq, hl_insert_in; reflexivity. Qed.

(* C08: after Archetype::register_handler, a targeted handler is in the archetype's listener list
   for its event iff its filter matches the archetype's component set (or it was there before) *)
Theorem register_handler_listens ai a h ek :
  h_recv h = RvTargeted ek ->
  forall x, In x (listeners_of (fst (register_handler ai a h)) (fst ek)) <->
            (x = h_key h /\ ca_matches (arch_has a) (h_filter h) = true) \/ In x (listeners_of a (fst ek)).
Proof.
  intros Hr x. unfold register_handler. rewrite Hr.
  destruct (ca_matches (arch_has a) (h_archfilter h)); destruct (ca_matches (arch_has a) (h_filter h)); cbn [fst];
    unfold listeners_of; cbn [a_listeners set_tables]; rewrite ?listeners_insert_in; intuition discriminate.
Qed.

Definition cached (c : list centry) (ai : N) : Prop := exists e, In e c /\ ce_idx e = ai.

Lemma nset_in {A} (l : list A) : forall i x y, In y (nset l i x) -> y = x \/ In y l.
Proof.
  induction l as [|h t IH]; intros i x y; cbn [nset]; [intuition|].
  destruct (i =? 0); cbn; [intuition|]. intros [->|Hi]; [auto|]. destruct (IH _ _ _ Hi); auto.
Qed.

(* C10: after a refresh notification the archetype is in the parameter's cache, with its current
   identity and buffer epoch, iff the query matches it (or it was cached before) *)
Theorem cache_insert_has c e : cached (cache_insert c e) (ce_idx e) /\ In e (cache_insert c e).
Proof.
  assert (H : In e (cache_insert c e)); [|split; [exists e; auto|exact H]].
  unfold cache_insert. destruct (nposition (fun x => ce_idx x =? ce_idx e) c) as [i|] eqn:Ep; [|apply in_elt].
  destruct (nposition_split _ _ _ Ep) as (l1 & x & l2 & -> & <- & _). rewrite nset_app_mid. apply in_elt.
Qed.

(* C14: cached transitions after a type removal *)
Theorem no_transition_mentions_removed_component w cidx ctag member_of ai a :
  slab_get (w_archs (archs_remove_component w cidx ctag member_of)) ai = Some a ->
  alookup cidx (a_ins a) = None /\ alookup cidx (a_rem a) = None.
Proof.
  unfold archs_remove_component, slab_get. cbn [w_archs set_archs sl_entries].
  set (w1 := fold_left _ member_of w). clearbody w1.
  generalize (sl_entries (w_archs w1)) as l. intros l. revert ai.
  induction l as [|e t IH]; intros ai; cbn [map nget]; [discriminate|].
  destruct (ai =? 0).
  - destruct e as [a0|n]; [|discriminate]. intros H. inversion H; subst. cbn [a_ins a_rem set_edges].
    split; apply alookup_aremove_eq.
  - apply IH.
Qed.


(* C01 (partial), the unchecked steps of the column walk: `new_components.next().unwrap_unchecked()` and
   `debug_assert_eq!(component_idx, dst_comp_idx)`
   are never reached with a missing or mismatching value: the walk succeeds whenever the
   destination is the source plus the inserted component, or the source minus the removed one *)
Lemma merge_row_same : forall sc sv fuel, length sv = length sc -> (length sc < fuel)%nat ->
  merge_row fuel sc sv sc None = Some (sv, []).
Proof.
  induction sc as [|s sc IH]; intros sv fuel Hlen Hf; (destruct fuel as [|f]; [lia|]); destruct sv as [|v sv]; try discriminate; cbn [merge_row].
  - reflexivity.
  - rewrite N.ltb_irrefl, N.eqb_refl. cbn in Hlen, Hf. rewrite IH by lia. reflexivity.
Qed.

(* the column walk for an insertion computes the map update *)
Lemma merge_row_insert_walk : forall sc sv c v fuel,
  length sv = length sc -> ~ In c sc -> (length sc + length sc + 1 < fuel)%nat ->
  exists dvals, merge_row fuel sc sv (sorted_insert c sc) (Some (c, v)) = Some (dvals, []) /\
    forall c', alookup c' (combine (sorted_insert c sc) dvals) = if c' =? c then Some v else alookup c' (combine sc sv).
Proof.
  induction sc as [|s sc IH]; intros sv c v fuel Hlen Hnin Hf; (destruct fuel as [|f]; [lia|]); destruct sv as [|v0 sv]; try discriminate; cbn [sorted_insert].
  - cbn [merge_row]. rewrite N.eqb_refl. destruct f; [cbn in Hf; lia|]. cbn [merge_row]. exists [v]. split; [reflexivity|].
    intros c'. cbn. now destruct (c' =? c).
  - cbn in Hlen, Hf. assert (Hsc : s <> c) by (intros ->; apply Hnin; now left). destruct (c <? s) eqn:Ecs.
    + cbn [merge_row]. apply N.ltb_lt in Ecs.
      assert ((s <? c) = false) as -> by (apply N.ltb_ge; lia).
      assert ((s =? c) = false) as -> by (apply N.eqb_neq; lia). rewrite N.eqb_refl.
      rewrite (merge_row_same (s :: sc) (v0 :: sv)) by (cbn; lia). exists (v :: v0 :: sv). split; [reflexivity|].
      intros c'. cbn [combine alookup]. destruct (c' =? c); reflexivity.
    + cbn [merge_row]. rewrite N.ltb_irrefl, N.eqb_refl.
      assert (Hn : ~ In c sc) by (intros X; apply Hnin; now right).
      destruct (IH sv c v f ltac:(lia) Hn ltac:(lia)) as (dvals & E & Hspec). rewrite E. exists (v0 :: dvals). split; [reflexivity|].
      intros c'. cbn [combine alookup]. destruct (c' =? s) eqn:E1.
      * apply N.eqb_eq in E1. subst c'. now replace (s =? c) with false by (symmetry; now apply N.eqb_neq).
      * apply Hspec.
Qed.

Theorem merge_row_insert_succeeds : forall sc sv c v fuel,
  length sv = length sc -> ~ In c sc -> (length sc + length sc + 1 < fuel)%nat ->
  merge_row fuel sc sv (sorted_insert c sc) (Some (c, v)) <> None.
Proof. intros sc sv c v fuel Hlen Hnin Hf. destruct (merge_row_insert_walk sc sv c v fuel Hlen Hnin Hf) as (dvals & -> & _). discriminate. Qed.

Lemma filter_length_le {A} (f : A -> bool) l : (length (filter f l) <= length l)%nat.
Proof. induction l as [|x l IH]; cbn [filter length]; [lia|]. destruct (f x); cbn [length]; lia. Qed.

Lemma merge_row_remove_walk : forall sc sv c fuel,
  length sv = length sc -> StronglySorted N.lt sc -> (length sc + length (filter (fun x => negb (x =? c)) sc) < fuel)%nat ->
  exists dvals killed, merge_row fuel sc sv (filter (fun x => negb (x =? c)) sc) None = Some (dvals, killed) /\
    forall c', alookup c' (combine (filter (fun x => negb (x =? c)) sc) dvals) = if c' =? c then None else alookup c' (combine sc sv).
Proof.
  induction sc as [|s sc IH]; intros sv c fuel Hlen Hs Hf; (destruct fuel as [|f]; [lia|]); destruct sv as [|v0 sv]; try discriminate; cbn [filter] in *.
  - cbn [merge_row]. exists [], []. split; [reflexivity|]. intros c'. cbn. now destruct (c' =? c).
  - cbn [length] in Hlen, Hf. apply StronglySorted_inv in Hs as [Hs Hall].
    destruct (s =? c) eqn:Esc; cbn [negb] in *.
    + destruct (IH sv c f ltac:(lia) Hs ltac:(lia)) as (dv & kl & E & Hspec).
      apply N.eqb_eq in Esc. subst s. cbn [merge_row]. destruct (filter (fun x => negb (x =? c)) sc) as [|d dc'] eqn:Ef.
      * rewrite E. exists dv, ((c, v0) :: kl). split; [reflexivity|]. intros c'. rewrite Hspec. cbn [combine alookup]. now destruct (c' =? c).
      * assert (Hd : c < d).
        { rewrite Forall_forall in Hall. apply Hall. assert (Hin : In d (filter (fun x => negb (x =? c)) sc)) by (rewrite Ef; now left).
          apply filter_In in Hin. tauto. }
        replace (c <? d) with true by (symmetry; apply N.ltb_lt; exact Hd). rewrite E.
        exists dv, ((c, v0) :: kl). split; [reflexivity|]. intros c'. rewrite Hspec. cbn [combine alookup]. now destruct (c' =? c).
    + cbn [length] in Hf. destruct (IH sv c f ltac:(lia) Hs ltac:(lia)) as (dv & kl & E & Hspec).
      cbn [merge_row]. rewrite N.ltb_irrefl, N.eqb_refl, E. exists (v0 :: dv), kl. split; [reflexivity|].
      intros c'. cbn [combine alookup]. destruct (c' =? s) eqn:E1.
      * apply N.eqb_eq in E1. subst c'. now rewrite Esc.
      * apply Hspec.
Qed.

Theorem merge_row_remove_succeeds : forall sc sv c fuel,
  length sv = length sc -> StronglySorted N.lt sc -> (length sc + length sc + 1 < fuel)%nat ->
  merge_row fuel sc sv (filter (fun x => negb (x =? c)) sc) None <> None.
Proof.
  intros sc sv c fuel Hlen Hs Hf. destruct (merge_row_remove_walk sc sv c fuel Hlen Hs) as (dvals & killed & -> & _); [|discriminate].
  pose proof (filter_length_le (fun x => negb (x =? c)) sc). lia.
Qed.
